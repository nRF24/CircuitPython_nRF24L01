(* BleFacts.v -- FakeBLE (C18, C19).  Whitening is XOR with a key stream that does not depend on the data, hence an
   involution; a framed packet (header, length byte, body, CRC-24) is what _make_payload builds and what available()
   queues; the whitening coefficient follows the channel over every history of hops, assignments and exits. *)
From Coq Require Import ZArith NArith List Bool Lia.
From NRF Require Import Base.Sweep Base.Bits Base.Lists Ble.Ble.
Import ListNotations.
Local Open Scope N_scope.

Definition bytes (l : list N) : Prop := Forall (fun b => b < 256) l.

Lemma bytes_app a b : bytes (a ++ b) <-> bytes a /\ bytes b.
Proof. apply Forall_app. Qed.

(* `injection` on such an equation would unfold the Z arithmetic inside a packet *)
Lemma BOk_inj {A} (a b : A) : BOk a = BOk b -> a = b.
Proof. intro H. injection H. auto. Qed.

Lemma sub_app_r a b n m : n = length a -> m = (n + length b)%nat -> sub (a ++ b) n m = b.
Proof.
  intros -> ->. unfold sub. rewrite skipn_app_exact, Nat.add_comm, Nat.add_sub. apply firstn_all.
Qed.

Lemma swap_bits_table x : x < 256 -> swap_bits (swap_bits x) = x /\ swap_bits x < 256.
Proof.
  intro H. rewrite <- N.eqb_eq, <- N.ltb_lt, <- andb_true_iff. revert x H. apply (below_N _ 256).
  vm_compute. reflexivity.
Qed.

(* swap_bits looks at the low byte only *)
Lemma swap_bits_byte x : swap_bits x < 256.
Proof.
  replace (swap_bits x) with (swap_bits (N.land x 255)).
  - apply swap_bits_table. rewrite N.land_comm. exact (N_land_lt 255 x 8 eq_refl).
  - unfold swap_bits. rewrite <- N.land_assoc. reflexivity.
Qed.

Lemma reverse_bits_invol l : bytes l -> reverse_bits (reverse_bits l) = l.
Proof.
  unfold reverse_bits. induction 1 as [|x l Hx _ IH]; cbn [map]; [reflexivity|].
  rewrite (proj1 (swap_bits_table x Hx)), IH. reflexivity.
Qed.

Lemma reverse_bits_bytes l : bytes (reverse_bits l).
Proof. apply Forall_map, Forall_forall. intros x _. apply swap_bits_byte. Qed.

Lemma reverse_bits_length l : length (reverse_bits l) = length l.
Proof. apply map_length. Qed.

Lemma reverse_bits_app a b : reverse_bits (a ++ b) = reverse_bits a ++ reverse_bits b.
Proof. apply map_app. Qed.

(* whitening is XOR with a key stream that depends on the coefficient only *)
Definition ks (c : N) : N := snd (wh_bits 8 c 0 1).     (* key-stream byte *)
Definition nc (c : N) : N := fst (wh_bits 8 c 0 1).     (* coefficient after one byte *)

(* The byte never influences the coefficient, and each round either XORs the mask into it or leaves it:
   so the rounds XOR the byte with whatever they make of 0.  For all numbers, not only bytes. *)
Lemma wh_bits_xor n : forall c b m,
  wh_bits n c b m = (fst (wh_bits n c 0 m), N.lxor b (snd (wh_bits n c 0 m))).
Proof.
  induction n as [|k IH]; intros c b m; cbn [wh_bits fst snd]; [rewrite N.lxor_0_r; reflexivity|].
  destruct (N.odd c); [|apply IH].
  rewrite (IH _ (N.lxor b m)), (IH _ (N.lxor 0 m)). cbn [fst snd].
  rewrite N.lxor_0_l, N.lxor_assoc. reflexivity.
Qed.

Lemma whitener_cons b t c : whitener (b :: t) c = N.lxor b (ks c) :: whitener t (nc c).
Proof. cbn [whitener]. rewrite wh_bits_xor. reflexivity. Qed.

Lemma whitener_length l : forall c, length (whitener l c) = length l.
Proof. induction l as [|b t IH]; intro c; [reflexivity|]. rewrite whitener_cons. cbn [length]. rewrite IH. reflexivity. Qed.

Theorem whitener_invol l : forall c, whitener (whitener l c) c = l.
Proof.
  induction l as [|b t IH]; intro c; [reflexivity|].
  rewrite !whitener_cons, IH, N.lxor_assoc, N.lxor_nilpotent, N.lxor_0_r. reflexivity.
Qed.

(* whitening is a stream operation: a prefix of the input gives the prefix of the output *)
Lemma whitener_app a : forall b c,
  whitener (a ++ b) c = whitener a c ++ whitener b (fold_left (fun c _ => nc c) a c).
Proof.
  induction a as [|x t IH]; intros b c; [reflexivity|].
  cbn [app fold_left]. rewrite !whitener_cons, IH. reflexivity.
Qed.

Lemma whitener_firstn a b c : firstn (length a) (whitener (a ++ b) c) = whitener a c.
Proof. rewrite whitener_app, <- (whitener_length a c). apply firstn_app_exact. Qed.

(* bytes stay bytes: the masks of the 8 rounds are 1, 2, .., 128 *)
Lemma wh_bits_lt n : forall c b j k, b < 2 ^ k -> j + N.of_nat n <= k -> snd (wh_bits n c b (2 ^ j)) < 2 ^ k.
Proof.
  induction n as [|n IH]; intros c b j k Hb Hj; cbn [wh_bits]; [exact Hb|].
  rewrite N.shiftl_mul_pow2, <- N.pow_add_r.
  destruct (N.odd c); apply IH; try lia. apply N_lxor_lt; [exact Hb|]. apply N.pow_lt_mono_r; lia.
Qed.

Lemma whitener_bytes l : forall c, bytes l -> bytes (whitener l c).
Proof.
  induction l as [|b t IH]; intros c Hl; [constructor|]. rewrite whitener_cons.
  inversion Hl as [|? ? Hb Ht]. constructor; [|apply IH; exact Ht].
  apply (N_lxor_lt _ _ 8 Hb). apply (wh_bits_lt 8 c 0 0 8); [reflexivity|discriminate].
Qed.

Lemma crc24_length d : length (crc24_ble d) = 3%nat.
Proof. reflexivity. Qed.

Lemma crc24_bytes d : bytes (crc24_ble d).
Proof. apply reverse_bits_bytes. Qed.

(* a packet as the receive path wants it: a header byte, a length byte that counts the body, the body,
   and the CRC-24 of all three *)
Definition framed (h : N) (body : list N) : list N :=
  let hd := h :: N.of_nat (length body) :: body in hd ++ crc24_ble hd.

Lemma framed_length h body : length (framed h body) = (length body + 5)%nat.
Proof. unfold framed. cbn [length app]. rewrite app_length, crc24_length. lia. Qed.

Lemma framed_bytes h body : h < 256 -> (length body < 256)%nat -> bytes body -> bytes (framed h body).
Proof.
  intros Hh Hl Hb. apply bytes_app. split; [|apply crc24_bytes]. repeat constructor; [exact Hh|lia|exact Hb].
Qed.

Local Open Scope Z_scope.

Definition name_ok (s : bst) : Prop := match name s with Some b => (length b <= 18)%nat | None => True end.

Lemma chunk_length b t : length (chunk b t) = (length b + 2)%nat.
Proof. unfold chunk. cbn [length]. lia. Qed.

(* everything between the length byte and the CRC *)
Definition adv_body (s : bst) (payload : list N) : list N :=
  mac s ++ [2; 1; 5]%N
  ++ (if show_dbm s then [2; 10; byte_of_signed (pa s)]%N else [])
  ++ (match name s with Some b => (N.of_nat (length b) + 1)%N :: 8%N :: b | None => [] end)
  ++ payload.

(* What _make_payload does, for EVERY state: once the packet fits, its length byte is 27 - len_available,
   between 9 and 27, so the second ValueError of the model (bytes([0x42, pl_size]) out of range) is dead. *)
Lemma make_payload_eq s payload :
  make_payload s payload =
  if len_available s (length payload) <? 0 then BExn BValueError
  else let hd := 66%N :: Z.to_N (27 - len_available s (length payload)) :: adv_body s payload in
       BOk (hd ++ crc24_ble hd).
Proof.
  unfold make_payload. destruct (Z.ltb_spec (len_available s (length payload)) 0) as [|E]; [reflexivity|].
  replace (9 + _ + _ + _) with (27 - len_available s (length payload)) by (unfold len_available; lia).
  replace ((0 <=? _) && (_ <=? 255)) with true; [reflexivity|].
  revert E. unfold len_available, name_length. destruct (show_dbm s), (name s); lia.
Qed.

Lemma adv_body_length s payload : length (mac s) = 6%nat ->
  Z.of_nat (length (adv_body s payload)) = 27 - len_available s (length payload).
Proof.
  intro Hm. unfold adv_body, len_available, name_length. rewrite !app_length, Hm.
  destruct (show_dbm s), (name s); cbn [length]; lia.
Qed.

(* with a 6-byte MAC the length byte counts the body *)
Lemma make_payload_framed s payload p :
  length (mac s) = 6%nat -> make_payload s payload = BOk p ->
  0 <= len_available s (length payload) /\ p = framed 66 (adv_body s payload).
Proof.
  intros Hm. rewrite make_payload_eq.
  destruct (Z.ltb_spec (len_available s (length payload)) 0) as [|Hfit]; [discriminate|].
  intro H. apply BOk_inj in H. subst p.
  rewrite <- (adv_body_length s payload Hm), <- nat_N_Z, N2Z.id. split; [exact Hfit|reflexivity].
Qed.

Local Open Scope N_scope.

(* _decode_data_struct never raises (struct.unpack sits behind the length test) and keeps the MAC *)
Lemma decode_struct_ok e buf :
  match decode_struct e buf with
  | BOk (Some e') => e_mac e' = e_mac e
  | BOk None => True
  | BExn _ => False
  end.
Proof.
  unfold decode_struct. destruct (negb _); [exact I|].
  destruct (byte_at buf 0 =? 22), (Nat.ltb (length buf) 3); cbn [andb]; try exact I;
    destruct (_ && _), (_ || _); reflexivity.
Qed.

Lemma parse_loop_ok fuel : forall buffer end_ i e,
  match parse_loop fuel buffer end_ i e with BOk r => e_mac r = e_mac e | BExn _ => False end.
Proof.
  induction fuel as [|k IH]; intros buffer end_ i e; cbn [parse_loop]; [reflexivity|].
  destruct (Nat.ltb i end_); [|reflexivity].
  destruct (_ || _ || _); [reflexivity|].
  pose proof (decode_struct_ok e (sub buffer (i + 1) (i + 1 + N.to_nat (byte_at buffer i)))) as Hd.
  destruct (decode_struct _ _) as [[e'|]|]; [|exact (IH _ _ _ (mkElem _ _ _ _))|exact Hd].
  rewrite <- Hd. apply IH.
Qed.

Lemma parse_element_ok buffer :
  match parse_element buffer with BOk e => e_mac e = sub buffer 2 8 | BExn _ => False end.
Proof. apply parse_loop_ok. Qed.

(* Whatever de-whitens to a framed packet (any header byte, any body of at most 27 bytes) followed by
   anything is queued as one element; its MAC is bytes 2..7 of the packet. *)
Theorem framed_is_queued s raw h body tail :
  (length body < 28)%nat ->
  whiten s (reverse_bits raw) = framed h body ++ tail ->
  exists e, receive s raw = BOk (mkB (curr_freq s) (channel s) (show_dbm s) (name s) (mac s) (pa s) (rx_queue s ++ [e]))
            /\ e_mac e = sub (framed h body) 2 8.
Proof.
  intros Hb Hc. unfold receive. rewrite Hc. unfold framed. set (hd := h :: N.of_nat (length body) :: body).
  assert (En : (N.to_nat (byte_at ((hd ++ crc24_ble hd) ++ tail) 1) + 2)%nat = length hd)
    by (cbn [hd app byte_at nth length]; lia).
  rewrite En.
  replace (length hd + 3)%nat with (length (hd ++ crc24_ble hd)) by (rewrite app_length; reflexivity).
  rewrite firstn_app_exact, firstn_app_exact, (sub_app_r hd) by (rewrite ?app_length; reflexivity).
  replace (Nat.ltb (length hd) 30) with true by (symmetry; apply Nat.ltb_lt; cbn [hd length]; lia).
  destruct (list_eq_dec N.eq_dec _ _) as [_|Hne]; [|destruct Hne; reflexivity].
  pose proof (parse_element_ok (hd ++ crc24_ble hd)) as Hm.
  destruct (parse_element _) as [e|]; [|destruct Hm]. exists e. split; [reflexivity|exact Hm].
Qed.

Lemma pad32_short x : (length x <= 32)%nat -> pad32 x = x ++ repeat 0 (32 - length x).
Proof.
  intro H. apply firstn_all2. rewrite app_length, repeat_length. lia.
Qed.

(* over the air and back: a receiver on the sender's channel de-whitens the padded payload to what was
   whitened, followed by what the padding de-whitens to *)
Lemma air_roundtrip s s' p :
  curr_freq s' = curr_freq s -> bytes p -> (length p <= 32)%nat ->
  exists tail, whiten s' (reverse_bits (pad32 (reverse_bits (whiten s p)))) = p ++ tail.
Proof.
  intros Hc Bp Lp. unfold whiten. rewrite Hc.
  rewrite pad32_short by (rewrite reverse_bits_length, whitener_length; exact Lp).
  rewrite reverse_bits_app, reverse_bits_invol by (apply whitener_bytes; exact Bp).
  rewrite whitener_app, whitener_invol. eexists. reflexivity.
Qed.

(* A packet advertised on a BLE channel and received by an object on the same channel passes the length and
   CRC tests and is queued as ONE element carrying the sender's MAC. *)
Theorem advertised_is_queued s s' payload f :
  length (mac s) = 6%nat -> bytes (mac s) -> bytes payload ->
  match name s with Some b => bytes b | None => True end ->
  curr_freq s' = curr_freq s ->
  advertise s payload = BOk f ->
  exists e, receive s' (pad32 f) = BOk (mkB (curr_freq s') (channel s') (show_dbm s') (name s') (mac s') (pa s') (rx_queue s' ++ [e]))
            /\ e_mac e = mac s.
Proof.
  intros Hm Bm Bp Bn Hc. unfold advertise.
  destruct (make_payload s payload) as [p|] eqn:E; [|discriminate]. intro H. apply BOk_inj in H. subst f.
  destruct (make_payload_framed s payload p Hm E) as [Hfit ->].
  pose proof (adv_body_length s payload Hm) as L. set (body := adv_body s payload) in *.
  assert (Bb : bytes body).
  { unfold body, adv_body. rewrite !bytes_app. repeat split; try assumption; [repeat constructor| |].
    - destruct (show_dbm s); repeat constructor. unfold byte_of_signed.
      pose proof (Z.mod_pos_bound (pa s) 256). lia.
    - revert Hfit Bn. unfold len_available, name_length. destruct (name s) as [b|]; [|constructor].
      intros Hfit Bn. repeat constructor; [destruct (show_dbm s); lia|exact Bn]. }
  destruct (air_roundtrip s s' (framed 66 body) Hc) as (tail & Ht).
  { apply framed_bytes; [reflexivity|lia|exact Bb]. }
  { rewrite framed_length. lia. }
  destruct (framed_is_queued s' _ 66 body tail ltac:(lia) Ht) as (e & -> & He).
  exists e. split; [reflexivity|]. rewrite He. unfold sub, framed, body, adv_body. cbn [skipn app Nat.sub].
  rewrite <- Hm, <- app_assoc. apply firstn_app_exact.
Qed.

(* the BLE channel used for whitening (index curr_freq) is the one whose frequency the radio is tuned to *)
Definition Sync (s : bst) : Prop := curr_freq s <= 2 /\ channel s = BLE_FREQ (curr_freq s).

Inductive chop := OHop | OSetChannel (v : Z) | OExit | OSetName (n : option (list N)) | OSetShow (b : bool)
                | OSetMac (m : list N) | OSetPa (v : Z).
Definition chstep (s : bst) (o : chop) : bst :=
  match o with
  | OHop => hop s
  | OSetChannel v => set_channel s v
  | OExit => ble_exit s
  | OSetName n => match set_name s n with BOk s' => s' | BExn _ => s end
  | OSetShow b => match set_show s b with BOk s' => s' | BExn _ => s end
  | OSetMac m => set_mac s m
  | OSetPa v => set_pa s v
  end.

Lemma sync_init m : Sync (init_bst m).
Proof. split; [discriminate|reflexivity]. Qed.

(* only hop_channel() and the channel setter touch the pair, and both set the two together *)
Lemma sync_step s o : Sync s -> Sync (chstep s o).
Proof.
  intro H. destruct o as [|v| |n|b|m|v]; cbn [chstep]; try exact H.
  - unfold Sync, hop. cbn [curr_freq channel]. split; [|reflexivity].
    destruct H as [H _]. destruct (N.ltb_spec (curr_freq s) 2); lia.
  - unfold set_channel, is_ble_freq.
    destruct (Z.eqb_spec v 2) as [->|]; [split; [discriminate|reflexivity]|].
    destruct (Z.eqb_spec v 26) as [->|]; [split; [discriminate|reflexivity]|].
    destruct (Z.eqb_spec v 80) as [->|]; [split; [discriminate|reflexivity]|exact H].
  - unfold set_name. destruct n as [b|]; [destruct (Nat.ltb _ _)|]; exact H.
  - unfold set_show. destruct (_ && _); exact H.
Qed.

Theorem sync_history ops : forall s, Sync s -> Sync (fold_left chstep ops s).
Proof. induction ops as [|o t IH]; intros s H; [exact H|]. apply IH, sync_step, H. Qed.

(* the BLE channel at a tuned frequency; under Sync its whitening coefficient is the one used
   (Props/C18.v C18_whitening_coefficient) *)
Definition ble_channel_of_rf (rf : N) : N := if rf =? 2 then 37 else if rf =? 26 then 38 else 39.
