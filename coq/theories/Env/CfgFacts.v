(* CfgFacts.v -- SPI transfers at configuration level: `cspi` is what a transfer does to the configuration record of
   WorldFacts.v.  The new configuration depends only on the old one, for every command; so do the data bytes of the
   reply, for register writes and for reads of registers that are not derived from other state (STATUS, OBSERVE_TX,
   RPD, FIFO_STATUS). *)
From Coq Require Import NArith Arith List Bool Lia ZifyBool.
From NRF Require Import Env.Radio Env.WorldFacts.
Import ListNotations.
Local Open Scope N_scope.

Definition creg (c : cfg) (a : N) : N := nth (N.to_nat a) (c_sregs c) 0.
Definition cset (c : cfg) (a v : N) : cfg :=
  mkCfg (set_nth (c_sregs c) (N.to_nat a) v) (c_p0 c) (c_p1 c) (c_tx c) (c_ce c) (c_act c) (c_plus c).
Definition cset_addrs (c : cfg) (p0 p1 tx : list N) : cfg :=
  mkCfg (c_sregs c) p0 p1 tx (c_ce c) (c_act c) (c_plus c).
Definition cset_ce (c : cfg) (v : bool) : cfg :=
  mkCfg (c_sregs c) (c_p0 c) (c_p1 c) (c_tx c) v (c_act c) (c_plus c).
Definition cset_act (c : cfg) (v : bool) : cfg :=
  mkCfg (c_sregs c) (c_p0 c) (c_p1 c) (c_tx c) (c_ce c) v (c_plus c).

(* registers whose read value is derived from non-configuration state *)
Definition derived (a : N) : bool :=
  (a =? R_STATUS) || (a =? R_OBSERVE_TX) || (a =? R_RPD) || (a =? R_FIFO_STATUS).

Definition cread (c : cfg) (a : N) (n : nat) : list N :=
  if a =? R_RX_ADDR_P0 then pad n (c_p0 c)
  else if a =? R_RX_ADDR_P1 then pad n (c_p1 c)
  else if a =? R_TX_ADDR then pad n (c_tx c)
  else if (a =? R_DYNPD) || (a =? R_FEATURE) then pad n [if c_act c then creg c a else 0]
  else pad n [creg c a].

Definition cwrite (c : cfg) (a : N) (data : list N) : cfg :=
  match data with
  | [] => c
  | v :: _ =>
    if a =? R_RX_ADDR_P0 then cset_addrs c (overlay data (c_p0 c)) (c_p1 c) (c_tx c)
    else if a =? R_RX_ADDR_P1 then cset_addrs c (c_p0 c) (overlay data (c_p1 c)) (c_tx c)
    else if a =? R_TX_ADDR then cset_addrs c (c_p0 c) (c_p1 c) (overlay data (c_tx c))
    else if a =? R_STATUS then c
    else if ((a =? R_DYNPD) || (a =? R_FEATURE)) && negb (c_act c) then c
    else if a =? R_RF_CH then cset c a (N.land v (wmask a))
    else if wmask a =? 0 then c
    else cset c a (N.land v (wmask a))
  end.

(* configuration after a transfer, and the data bytes of the reply (meaningful for
   reads of non-derived registers) *)
Definition cspi (c : cfg) (mosi : list N) : cfg * list N :=
  match mosi with
  | [] => (c, [])
  | cmd :: data =>
    let n := length data in
    if cmd <? 32 then (c, cread c cmd n)
    else if cmd <? 64 then (cwrite c (cmd - 32) data, repeat 0 n)
    else if cmd =? 80 then
      match data with
      | 115 :: _ => ((if c_plus c then c else cset_act c (negb (c_act c))), repeat 0 n)
      | _ => (c, repeat 0 n)
      end
    else (c, repeat 0 n)
  end.

Lemma write_reg_cview r a data : cview (write_reg r a data) = cwrite (cview r) a data.
Proof.
  unfold write_reg, cwrite. destruct data as [|v t]; [reflexivity|].
  cbn [cview c_p0 c_p1 c_tx c_act activated].
  repeat match goal with
         | |- context [if ?c then _ else _] => destruct c
         end; reflexivity.
Qed.

Lemma spi_cview r mosi : cview (fst (spi r mosi)) = fst (cspi (cview r) mosi).
Proof.
  unfold spi, cspi. destruct mosi as [|cmd data]; [reflexivity|].
  destruct (cmd <? 32); [reflexivity|].
  destruct (cmd <? 64); [apply write_reg_cview|].
  destruct (cmd =? 80).
  { destruct data as [|x t]; [reflexivity|]. destruct x as [|q]; [reflexivity|].
    (* the pattern 115 is a path of seven binary digits; both sides branch on it alike *)
    do 7 (destruct q as [q|q|]; try reflexivity). cbn [fst cview c_plus c_act]. destruct (is_plus r); reflexivity. }
  repeat match goal with
         | |- context [if ?c then _ else _] => destruct c
         | |- context [match rx_fifo r with _ => _ end] => destruct (rx_fifo r) as [|[? ?] ?]
         end; reflexivity.
Qed.

Lemma read_reg_cread r a n : derived a = false -> read_reg r a n = cread (cview r) a n.
Proof.
  unfold derived, read_reg, cread, creg, sreg. intros H.
  destruct (a =? R_STATUS), (a =? R_OBSERVE_TX), (a =? R_RPD), (a =? R_FIFO_STATUS); try discriminate H.
  reflexivity.
Qed.

(* register reads of non-derived registers and all register writes *)
Definition cfg_cmd (cmd : N) : bool :=
  ((cmd <? 32) && negb (derived cmd)) || ((32 <=? cmd) && (cmd <? 64)).

Lemma spi_reply_cfg r cmd data :
  cfg_cmd cmd = true ->
  snd (spi r (cmd :: data)) = status r :: snd (cspi (cview r) (cmd :: data)).
Proof.
  unfold cfg_cmd, spi, cspi. intros H. destruct (cmd <? 32) eqn:E32.
  - rewrite read_reg_cread by (destruct (derived cmd); [lia|reflexivity]). reflexivity.
  - replace (cmd <? 64) with true by lia. reflexivity.
Qed.
