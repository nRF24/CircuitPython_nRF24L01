(* QuietFacts.v -- worlds in which only radio `me` can transmit (every other radio is a receiver, in standby or
   powered down): there `settle` is "exchange radio me while it can transmit", and one exchange latches exactly TX_DS
   or MAX_RT on radio `me`.  Also what `receive` does to a receiver's RX FIFO, and when a packet counts as a repeat. *)
From Coq Require Import NArith Arith List Bool.
From NRF Require Import Env.Radio Env.World Env.WorldFacts.
Import ListNotations.
Local Open Scope N_scope.

Definition active (r : radio) : bool := pwr_up r && negb (prim_rx r) && ce r.

Lemma can_tx_active r :
  can_tx r = active r && negb (max_rt r) && match tx_fifo r with [] => false | _ => true end.
Proof. reflexivity. Qed.

Lemma idle_ce_low r : ce r = false -> active r = false.
Proof. intro H. unfold active. rewrite H. apply andb_false_r. Qed.

Lemma idle_prx r : prim_rx r = true -> active r = false.
Proof. intro H. unfold active. rewrite H, andb_false_r. reflexivity. Qed.

Lemma can_tx_idle r : active r = false -> can_tx r = false.
Proof. intro H. rewrite can_tx_active, H. reflexivity. Qed.

Lemma active_cview r r' : cview r = cview r' -> active r = active r'.
Proof.
  intro H. injection H as E1 _ _ _ E2 _ _.
  unfold active, pwr_up, prim_rx, sreg. rewrite E1, E2. reflexivity.
Qed.

Definition OthersPassive (w : world) (me : nat) : Prop := forall j, j <> me -> active (get_radio w j) = false.

Lemma others_passive_same_cfg w w' me : same_cfg w w' -> OthersPassive w me -> OthersPassive w' me.
Proof. intros [_ H] P j Hj. rewrite <- (P j Hj). apply active_cview. apply H. Qed.

Lemma others_passive_set_me w me r : OthersPassive w me -> OthersPassive (set_radio w me r) me.
Proof. intros P j Hj. rewrite get_set_radio_other by congruence. exact (P j Hj). Qed.

(* find_tx scans from index 0; where no radio but `me` can transmit it can only find `me` *)
Lemma find_tx_only rs : forall k me,
  (forall j, j <> me -> can_tx (nth j rs (reset_radio true)) = false) ->
  find_tx rs k = if can_tx (nth me rs (reset_radio true)) then Some (k + me)%nat else None.
Proof.
  induction rs as [|r t IH]; intros k me H; [destruct me; reflexivity|]. cbn [find_tx].
  destruct me as [|m]; cbn [nth].
  - rewrite Nat.add_0_r. destruct (can_tx r); [reflexivity|].
    rewrite (IH (S k) 0%nat) by (intros j _; exact (H (S j) (Nat.neq_succ_0 j))).
    rewrite (H 1%nat (Nat.neq_succ_0 0) : can_tx (nth 0 t _) = false). reflexivity.
  - rewrite (H 0%nat (Nat.neq_0_succ m) : can_tx r = false), Nat.add_succ_r.
    apply (IH (S k) m). intros j Hj. apply (H (S j)). congruence.
Qed.

Lemma can_tx_reset : can_tx (reset_radio true) = false.
Proof. reflexivity. Qed.

Lemma find_tx_quiet w me : OthersPassive w me ->
  find_tx (radios w) 0 = if can_tx (get_radio w me) then Some me else None.
Proof. intro P. apply find_tx_only. intros j Hj. exact (can_tx_idle _ (P j Hj)). Qed.

Lemma settle_idle n w me : OthersPassive w me -> can_tx (get_radio w me) = false -> settle n w = w.
Proof.
  intros P Hc. destruct n as [|k]; [reflexivity|]. cbn [settle].
  rewrite (find_tx_quiet w me P), Hc. reflexivity.
Qed.

Lemma exchange_length w si : length (radios (exchange w si)) = length (radios w).
Proof. exact (proj1 (exchange_cfg w si)). Qed.

Lemma settle_once n w me : OthersPassive w me ->
  can_tx (get_radio w me) = true -> can_tx (get_radio (exchange w me) me) = false ->
  settle (S n) w = exchange w me.
Proof.
  intros P Hc Hc'. cbn [settle]. rewrite (find_tx_quiet w me P), Hc.
  apply (settle_idle n _ me); [|exact Hc'].
  apply (others_passive_same_cfg w); [apply exchange_cfg|exact P].
Qed.

(* an attempt never touches the transmitter's TX FIFO nor its TX_DS / MAX_RT flags *)
Definition TR (s s' : radio) : Prop := tx_fifo s' = tx_fifo s /\ N.land (flags s') 48 = N.land (flags s) 48.

Lemma TR_refl s : TR s s. Proof. split; reflexivity. Qed.
Lemma TR_trans a b c : TR a b -> TR b c -> TR a c.
Proof. intros [A1 A2] [B1 B2]. split; congruence. Qed.

Lemma land_lor_64 f : N.land (N.lor f 64) 48 = N.land f 48.
Proof. rewrite N.land_lor_distr_l. change (N.land 64 48) with 0. apply N.lor_0_r. Qed.

(* WorldFacts.attempt_rel for "the radio at the sender's position is TR-related": `receive` never runs there *)
Lemma attempt_transmitter fuel w si e noack expects made :
  rel_worlds (fun j r r' => j = si -> TR r r') w (fst (fst (fst (attempt w si e noack expects fuel made)))).
Proof.
  apply attempt_rel.
  - intros; apply TR_refl.
  - intros j a b c H1 H2 Hj. exact (TR_trans _ _ _ (H1 Hj) (H2 Hj)).
  - intros; contradiction.
  - intros r a _. split; [reflexivity|apply land_lor_64].
Qed.

(* the outcome of an exchange as the world decides it *)
Definition exchange_ok (w : world) (si : nat) : bool :=
  let s := get_radio w si in
  match tx_fifo s with
  | [] => false
  | e :: _ =>
    let noack := match tx_kind e with TxNoAck => en_dyn_ack s | _ => false end in
    let expects := bitb (sreg s R_EN_AA) 0 && negb noack in
    let arc := N.land (sreg s R_SETUP_RETR) 15 in
    snd (fst (fst (attempt w si e noack expects (if expects then S (N.to_nat arc) else 1) 0)))
  end.

(* after the exchange of a queued payload: TX_DS on success (and the payload has left the TX FIFO), MAX_RT on failure
   (and the payload stays); nothing else changes in the transmitter's TX FIFO, these two flags or its configuration *)
Lemma exchange_transmitter w si e rest :
  (si < length (radios w))%nat -> tx_fifo (get_radio w si) = e :: rest ->
  let s' := get_radio (exchange w si) si in
  exists s1, TR (get_radio w si) s1 /\
    (if exchange_ok w si
     then flags s' = N.lor (flags s1) 32 /\ tx_fifo s' = tl (tx_fifo s1)
     else flags s' = N.lor (flags s1) 16 /\ tx_fifo s' = tx_fifo s1)
    /\ cview s' = cview (get_radio w si).
Proof.
  intros Hl Ht. pose proof (exchange_radios w si e rest Ht) as E.
  unfold exchange_ok. rewrite Ht. change (attempt w si e _ _ _ 0) with (attempts w si e).
  destruct (attempt_transmitter _ w si e _ _ 0 : rel_worlds _ w (fst (fst (fst (attempts w si e))))) as [L T].
  destruct (attempts w si e) as [[[w1 ok] made] who]. cbn [fst snd] in *.
  exists (get_radio w1 si). split; [exact (T si eq_refl)|]. split; [|exact (proj2 (exchange_cfg w si) si)].
  rewrite (get_radio_ext _ _ E), get_set_radio_same by (rewrite L; exact Hl). destruct ok; split; reflexivity.
Qed.

Definition is_dup (r : radio) (pid : N) (d : list N) : bool :=
  match last_rx r with Some (q, d') => (q =? pid) && list_eqb d d' | None => false end.

(* a fresh packet on a non-full FIFO is appended, on the pipe it matched, and remembered; a repeated one (same PID
   and payload as the last one accepted) never enters the FIFO again *)
Lemma receive_rx r p pid noack d h :
  let r' := fst (fst (receive r p pid noack d h)) in
  if rx_full r || is_dup r pid d then rx_fifo r' = rx_fifo r /\ last_rx r' = last_rx r
  else rx_fifo r' = rx_fifo r ++ [(p, d)] /\ last_rx r' = Some (pid, d).
Proof.
  destruct (receive_cases r p pid noack d h) as [-> |(rest & ->)]; unfold received; fold (is_dup r pid d);
    destruct (_ || _); split; reflexivity.
Qed.

Lemma is_dup_last r pid d : last_rx r = Some (pid, d) -> is_dup r pid d = true.
Proof. intro L. unfold is_dup. rewrite L, N.eqb_refl. exact (proj2 (list_eqb_eq d d) eq_refl). Qed.
