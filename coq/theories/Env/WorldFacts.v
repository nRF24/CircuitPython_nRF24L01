(* WorldFacts.v -- what exchanges do and what they preserve.  `attempt` and `exchange` are unfolded in attempt_round
   (one round, seen through `round`) and exchange_idle / exchange_radios only; attempt_rel / exchange_round /
   exchange_rel / settle_ind reduce any per-radio relation between the worlds before and after to facts about single
   radios (`receive`, an ACK payload arriving, the outcome latched).  First instance: no exchange changes any radio's
   CONFIGURATION (cview: registers, addresses, CE, feature activation). *)
From Coq Require Import NArith Arith List Bool Lia.
From NRF Require Import Env.Radio Env.World.
Import ListNotations.
Local Open Scope N_scope.

Lemma list_eqb_eq a b : list_eqb a b = true <-> a = b.
Proof.
  revert b. induction a as [|x t IH]; intros [|y s]; cbn; split; intros H; try discriminate; try reflexivity.
  - apply andb_true_iff in H. destruct H as [H1 H2]. apply N.eqb_eq in H1. apply IH in H2. congruence.
  - inversion H; subst. rewrite N.eqb_refl. cbn. apply IH. reflexivity.
Qed.

Record cfg := mkCfg { c_sregs : list N; c_p0 : list N; c_p1 : list N; c_tx : list N;
                      c_ce : bool; c_act : bool; c_plus : bool }.

Definition cview (r : radio) : cfg :=
  mkCfg (sregs r) (addr_p0 r) (addr_p1 r) (addr_tx r) (ce r) (activated r) (is_plus r).

Lemma cview_with_flags r f : cview (with_flags r f) = cview r. Proof. reflexivity. Qed.
Lemma cview_with_fifos r a b : cview (with_fifos r a b) = cview r. Proof. reflexivity. Qed.
Lemma cview_with_observe r a b : cview (with_observe r a b) = cview r. Proof. reflexivity. Qed.
Lemma cview_with_last_rx r l : cview (with_last_rx r l) = cview r. Proof. reflexivity. Qed.
Lemma cview_with_pid r p : cview (with_pid r p) = cview r. Proof. reflexivity. Qed.

(* the receiver once the packet has been taken in: unchanged if the RX FIFO is full or the packet repeats the
   last one (same PID and payload); else the packet is queued and remembered and RX_DR latched *)
Definition received (r : radio) (p pid : N) (d : list N) : radio :=
  if rx_full r || match last_rx r with Some (q, d') => (q =? pid) && list_eqb d d' | None => false end then r
  else with_flags (with_last_rx (with_fifos r (rx_fifo r ++ [(p, d)]) (tx_fifo r)) (Some (pid, d))) (N.lor (flags r) 64).

(* `receive` is `received` and, on top of it, if an ACK payload for that pipe goes out and the ACK is heard, that
   payload has left the TX FIFO and TX_DS is latched *)
Lemma receive_cases r p pid noack d h :
  let r1 := received r p pid d in
  let r' := fst (fst (receive r p pid noack d h)) in
  r' = r1 \/ exists rest, r' = with_flags (with_fifos r1 (rx_fifo r1) rest) (N.lor (flags r1) 32).
Proof.
  unfold receive, received. destruct (rx_full r); [left; reflexivity|]. cbn [orb].
  destruct (match last_rx r with Some _ => _ | None => _ end).
  all: destruct (_ && _ && _); [|left; reflexivity].
  all: destruct (take_ack _ _) as [[a rest]|]; [|left; reflexivity].
  all: destruct h; [right; exists rest; reflexivity|left; reflexivity].
Qed.

Lemma receive_cview r p pid noack d h :
  cview (fst (fst (receive r p pid noack d h))) = cview r.
Proof.
  destruct (receive_cases r p pid noack d h) as [-> |(rest & ->)]; unfold received; destruct (_ || _); reflexivity.
Qed.

Lemma set_nth_radio_length rs : forall i r, length (set_nth_radio rs i r) = length rs.
Proof.
  induction rs as [|x t IH]; intros i r; [reflexivity|].
  destruct i; cbn; [reflexivity|]. rewrite IH. reflexivity.
Qed.

Lemma set_nth_radio_id rs : forall i, (i < length rs)%nat -> set_nth_radio rs i (nth i rs (reset_radio true)) = rs.
Proof. induction rs as [|x t IH]; intros i Hi; [cbn in Hi; lia|]. destruct i; cbn; [reflexivity|]. f_equal. apply IH. cbn in Hi. lia. Qed.

Lemma set_nth_radio_twice rs : forall i a b, set_nth_radio (set_nth_radio rs i a) i b = set_nth_radio rs i b.
Proof. induction rs as [|x t IH]; intros i a b; [destruct i; reflexivity|]. destruct i; cbn [set_nth_radio]; [reflexivity|]. f_equal. apply IH. Qed.

Lemma get_set_radio w i r j :
  get_radio (set_radio w i r) j
  = if Nat.eqb j i && (j <? length (radios w))%nat then r else get_radio w j.
Proof.
  unfold get_radio, set_radio. cbn [radios]. generalize (radios w). intros rs. revert i j.
  induction rs as [|x t IH]; intros i j; [rewrite andb_false_r; destruct i; reflexivity|].
  destruct i, j; try reflexivity. apply IH.
Qed.

Lemma get_set_radio_same w i r : (i < length (radios w))%nat -> get_radio (set_radio w i r) i = r.
Proof. intro Hi. rewrite get_set_radio, Nat.eqb_refl, (proj2 (Nat.ltb_lt _ _) Hi). reflexivity. Qed.

Lemma get_set_radio_other w i j r : i <> j -> get_radio (set_radio w i r) j = get_radio w j.
Proof. intro Hij. rewrite get_set_radio, (proj2 (Nat.eqb_neq j i)) by congruence. reflexivity. Qed.

(* what `deliver` does to the radio at position j: the sender is skipped, a radio on which the packet matches a
   pipe runs `receive`, every other radio is left alone *)
Definition delivered (s : radio) (si : nat) (pid : N) (noack : bool) (d : list N) (h : bool) (j : nat) (r : radio) : radio :=
  if Nat.eqb j si then r
  else match rx_pipe s r d with
       | None => r
       | Some p => fst (fst (receive r p pid noack d h))
       end.

Lemma deliver_cons s si pid noack d h r t j :
  fst (fst (fst (deliver s si (r :: t) j pid noack d h)))
  = delivered s si pid noack d h j r :: fst (fst (fst (deliver s si t (S j) pid noack d h))).
Proof.
  cbn [deliver]. unfold delivered. destruct (deliver s si t (S j) pid noack d h) as [[[t' ak] apl] who].
  destruct (Nat.eqb j si); [reflexivity|].
  destruct (rx_pipe s r d) as [p|]; [|reflexivity].
  destruct (receive r p pid noack d h) as [[r' a] pl]. reflexivity.
Qed.

Lemma deliver_length s si pid noack d h rs : forall j,
  length (fst (fst (fst (deliver s si rs j pid noack d h)))) = length rs.
Proof. induction rs as [|r t IH]; intro j; [reflexivity|]. rewrite deliver_cons. cbn [length]. rewrite IH. reflexivity. Qed.

(* also beyond the end of the list: a radio straight after power-up does not listen *)
Lemma deliver_nth s si pid noack d h rs : forall j k,
  nth k (fst (fst (fst (deliver s si rs j pid noack d h)))) (reset_radio true)
  = delivered s si pid noack d h (j + k) (nth k rs (reset_radio true)).
Proof.
  induction rs as [|r t IH]; intros j k.
  - unfold delivered. destruct k, (Nat.eqb _ si); reflexivity.
  - rewrite deliver_cons. destruct k as [|k]; cbn [nth]; [rewrite Nat.add_0_r; reflexivity|].
    rewrite Nat.add_succ_r. apply IH.
Qed.

Lemma rx_pipe_lt s r d p : rx_pipe s r d = Some p -> p < 6.
Proof.
  unfold rx_pipe. destruct (_ && _); [|discriminate]. intro H. apply find_some in H. destruct H as [Hin _].
  cbn in Hin. lia.
Qed.

(* what one round of `attempt` does to the radios: nothing when the oracle loses the packet; otherwise the packet
   is on the air (whether an ACK can be heard is h) *)
Definition round (w : world) (si : nat) (e : txentry) (noack : bool) (w' : world) : Prop :=
  length (radios w') = length (radios w) /\
  ((match oracle w with PacketLost :: _ => True | _ => False end /\ forall j, get_radio w' j = get_radio w j)
   \/ exists h, forall j, get_radio w' j = delivered (get_radio w si) si (tx_pid e) noack (tx_data e) h j (get_radio w j)).

Lemma deliver_round w si e noack h x o a c :
  deliver (get_radio w si) si (radios w) 0 (tx_pid e) noack (tx_data e) h = x ->
  round w si e noack (mkWorld (fst (fst (fst x))) o a c).
Proof. intros <-. split; [apply deliver_length|]. right. exists h. intro j. apply (deliver_nth _ _ _ _ _ _ _ 0%nat). Qed.

(* the attempts an exchange makes for the payload e at the head of the sender's TX FIFO: whether an ACK is
   awaited and how many rounds there may be is read off the sender's registers *)
Definition attempts (w : world) (si : nat) (e : txentry) : world * bool * N * list (nat * N) :=
  let s := get_radio w si in
  let noack := match tx_kind e with TxNoAck => en_dyn_ack s | _ => false end in
  let expects := bitb (sreg s R_EN_AA) 0 && negb noack in
  attempt w si e noack expects (if expects then S (N.to_nat (N.land (sreg s R_SETUP_RETR) 15)) else 1) 0.

Lemma attempts_S w si e : exists noack expects k, attempts w si e = attempt w si e noack expects (S k) 0.
Proof. unfold attempts. destruct (bitb _ _ && _); repeat eexists. Qed.

(* the outcome the sender latches: TX_DS and the payload gone, or MAX_RT and one more lost packet *)
Definition latched (ok : bool) (made : N) (s : radio) : radio :=
  if ok then with_observe (with_flags (with_fifos s (rx_fifo s) (tl (tx_fifo s))) (N.lor (flags s) 32))
                          (made - 1) (plos_cnt s)
  else with_observe (with_flags s (N.lor (flags s) 16)) (made - 1) (if plos_cnt s <? 15 then plos_cnt s + 1 else 15).

Lemma exchange_idle w si : tx_fifo (get_radio w si) = [] -> exchange w si = w.
Proof. intro Ht. unfold exchange. rewrite Ht. reflexivity. Qed.

Lemma exchange_radios w si e rest : tx_fifo (get_radio w si) = e :: rest ->
  let '(w1, ok, made, _) := attempts w si e in
  radios (exchange w si) = radios (set_radio w1 si (latched ok made (get_radio w1 si))).
Proof.
  intro Ht. unfold exchange, attempts. rewrite Ht.
  destruct (attempt _ _ _ _ _ _ _) as [[[w1 ok] made] who]. reflexivity.
Qed.

Lemma get_radio_ext w w' : radios w = radios w' -> forall j, get_radio w j = get_radio w' j.
Proof. unfold get_radio. intros ->. reflexivity. Qed.

(* Rr j r r' says what may have happened to radio number j in an exchange from radio si with payload e *)
Section Rel.
  Variables (si : nat) (e : txentry).
  Variable Rr : nat -> radio -> radio -> Prop.
  Hypothesis Rr_refl : forall j r, Rr j r r.
  Hypothesis Rr_trans : forall j a b c, Rr j a b -> Rr j b c -> Rr j a c.
  Hypothesis Rr_receive : forall j r p noack h, j <> si -> p < 6 ->
    Rr j r (fst (fst (receive r p (tx_pid e) noack (tx_data e) h))).
  Hypothesis Rr_ack : forall r a,
    Rr si r (with_flags (with_fifos r (rx_fifo r ++ [(0, a)]) (tx_fifo r)) (N.lor (flags r) 64)).
  Hypothesis Rr_outcome : forall ok made r, Rr si r (latched ok made r).

  Definition rel_worlds (w w' : world) : Prop :=
    length (radios w') = length (radios w) /\ forall j, Rr j (get_radio w j) (get_radio w' j).

  Lemma rel_worlds_refl w : rel_worlds w w.
  Proof using Rr_refl. split; [reflexivity|intro; apply Rr_refl]. Qed.

  Lemma rel_worlds_trans a b c : rel_worlds a b -> rel_worlds b c -> rel_worlds a c.
  Proof using Rr_trans.
    intros [L1 H1] [L2 H2]. split; [congruence|intro j; exact (Rr_trans _ _ _ _ (H1 j) (H2 j))].
  Qed.

  Lemma rel_round w noack w' : round w si e noack w' -> rel_worlds w w'.
  Proof using Rr_refl Rr_receive.
    intros [L [[_ H]|[h H]]]; (split; [exact L|]); intro j; rewrite H; [apply Rr_refl|].
    unfold delivered. destruct (Nat.eqb_spec j si); [apply Rr_refl|].
    destruct (rx_pipe _ _ _) eqn:E; [apply Rr_receive; [assumption|exact (rx_pipe_lt _ _ _ _ E)]|apply Rr_refl].
  Qed.

  Lemma rel_set_sender w r : Rr si (get_radio w si) r -> rel_worlds w (set_radio w si r).
  Proof using Rr_refl.
    intro H. split; [apply set_nth_radio_length|]. intro j. rewrite get_set_radio.
    destruct (Nat.eqb_spec j si) as [->|]; [destruct (_ <? _)%nat|]; first [exact H|apply Rr_refl].
  Qed.

  Let res n w noack expects made := fst (fst (fst (attempt w si e noack expects n made))).

  (* one more round, for a relation that k rounds are known to keep *)
  Lemma attempt_round k w noack expects made :
    (forall w made, rel_worlds w (res k w noack expects made)) ->
    exists w', round w si e noack w' /\ rel_worlds w' (res (S k) w noack expects made).
  Proof using Rr_refl Rr_ack.
    intro IH. unfold res in *. cbn [attempt]. unfold next_fate.
    destruct (oracle w) as [|[] o] eqn:Eo.
    3: { eexists. split; [|destruct expects; [apply IH|apply rel_worlds_refl]].
         split; [reflexivity|left; rewrite Eo; split; [exact I|reflexivity]]. }
    (* the code has the same continuation for Delivered and AckLost; they differ in whether the ACK is heard *)
    all: cbn [radios oracle air clock]; destruct (deliver _ _ _ _ _ _ _ _) as [[[rs' ak] apl] who] eqn:D.
    all: set (w2 := mkWorld rs' _ _ _); exists w2; split; [exact (deliver_round _ _ _ _ _ _ _ _ _ D)|].
    all: destruct (negb expects); [apply rel_worlds_refl|].
    all: destruct (ak && _);
      [apply rel_set_sender; destruct apl as [a|]; [destruct (rx_full _)|]; first [apply Rr_refl|apply Rr_ack]|].
    all: specialize (IH w2 (made + 1)); destruct (attempt _ _ _ _ _ _ _) as [[[w3 ok] m] who']; exact IH.
  Qed.

  Theorem attempt_rel noack expects fuel : forall w made, rel_worlds w (res fuel w noack expects made).
  Proof using Rr_refl Rr_trans Rr_receive Rr_ack.
    induction fuel as [|k IH]; intros w made; [apply rel_worlds_refl|].
    destruct (attempt_round k w noack expects made IH) as (w' & Hr & H).
    exact (rel_worlds_trans _ _ _ (rel_round _ _ _ Hr) H).
  Qed.

  (* a whole exchange: its first round, and then what it keeps *)
  Theorem exchange_round w rest : tx_fifo (get_radio w si) = e :: rest ->
    exists noack w', round w si e noack w' /\ rel_worlds w' (exchange w si).
  Proof using Rr_refl Rr_trans Rr_receive Rr_ack Rr_outcome.
    intro Ht. pose proof (exchange_radios w si e rest Ht) as E.
    destruct (attempts_S w si e) as (noack & expects & k & Ea). rewrite Ea in E.
    destruct (attempt_round k w noack expects 0 (attempt_rel noack expects k)) as (w' & Hr & H).
    exists noack, w'. split; [exact Hr|]. unfold res in H.
    destruct (attempt _ _ _ _ _ _ _) as [[[w1 ok] made] who]. cbn [fst] in H.
    apply (rel_worlds_trans _ _ _ H).
    destruct (rel_set_sender w1 _ (Rr_outcome ok made (get_radio w1 si))) as [L G].
    split; [rewrite E; exact L|]. intro j. rewrite (get_radio_ext _ _ E). apply G.
  Qed.

  Corollary exchange_rel_e w rest : tx_fifo (get_radio w si) = e :: rest -> rel_worlds w (exchange w si).
  Proof using Rr_refl Rr_trans Rr_receive Rr_ack Rr_outcome.
    intro Ht. destruct (exchange_round w rest Ht) as (noack & w' & Hr & H).
    exact (rel_worlds_trans _ _ _ (rel_round _ _ _ Hr) H).
  Qed.
End Rel.

(* whoever transmits, for a relation that depends neither on the position nor on the packet *)
Section Exchange.
  Variable R : radio -> radio -> Prop.
  Hypothesis R_refl : forall r, R r r.
  Hypothesis R_trans : forall a b c, R a b -> R b c -> R a c.
  Hypothesis R_receive : forall r p pid noack d h, p < 6 -> R r (fst (fst (receive r p pid noack d h))).
  Hypothesis R_ack : forall r a,
    R r (with_flags (with_fifos r (rx_fifo r ++ [(0, a)]) (tx_fifo r)) (N.lor (flags r) 64)).
  Hypothesis R_outcome : forall ok made r, R r (latched ok made r).

  Lemma exchange_rel w si : rel_worlds (fun _ => R) w (exchange w si).
  Proof using R_refl R_trans R_receive R_ack R_outcome.
    destruct (tx_fifo (get_radio w si)) as [|e rest] eqn:Ht; [rewrite (exchange_idle w si Ht); apply rel_worlds_refl; auto|].
    apply (exchange_rel_e si e) with (6 := Ht); eauto.
  Qed.
End Exchange.

(* `settle` keeps what every exchange keeps *)
Lemma settle_ind (P : world -> world -> Prop) :
  (forall w, P w w) -> (forall a b c, P a b -> P b c -> P a c) -> (forall w si, P w (exchange w si)) ->
  forall n w, P w (settle n w).
Proof.
  intros refl trans Hx. induction n as [|k IH]; intro w; [apply refl|]. cbn [settle].
  destruct (find_tx (radios w) 0); [|apply refl]. exact (trans _ _ _ (Hx w _) (IH _)).
Qed.

Definition same_cfg : world -> world -> Prop := rel_worlds (fun _ r r' => cview r' = cview r).

Lemma exchange_cfg w si : same_cfg w (exchange w si).
Proof. apply exchange_rel; try reflexivity; try congruence; [intros; apply receive_cview|intros []; reflexivity]. Qed.

Lemma settle_cfg n w : same_cfg w (settle n w).
Proof.
  apply settle_ind; [intro; apply rel_worlds_refl; reflexivity|apply rel_worlds_trans; congruence|apply exchange_cfg].
Qed.

Lemma w_spi_reply w i mosi : snd (w_spi w i mosi) = snd (spi (get_radio w i) mosi).
Proof. unfold w_spi. destruct (spi (get_radio w i) mosi). reflexivity. Qed.

Lemma w_spi_cfg_frame w i mosi :
  same_cfg (set_radio w i (fst (spi (get_radio w i) mosi))) (fst (w_spi w i mosi)).
Proof. unfold w_spi. destruct (spi (get_radio w i) mosi) as [r' miso]. exact (settle_cfg 8 _). Qed.
