(* WfFacts.v -- every reachable world is well formed: in every radio only the three interrupt flags
   (bits 4..6) are ever latched and every RX FIFO entry sits on a pipe 0..5.  This is the premise
   of the accessor theorems (Drv/AccessFacts.v); here it is shown to hold initially and to be
   preserved by every SPI transfer, CE change, clock reading and sleep, through any number of
   Enhanced-ShockBurst exchanges with any loss pattern (an instance of WorldFacts.exchange_rel). *)
From Coq Require Import ZArith NArith List Bool Lia.
From NRF Require Import Base.Bits Env.Radio Env.World Env.WorldFacts.
Import ListNotations.
Local Open Scope N_scope.

Definition FlagsOk (f : N) : Prop := f < 128 /\ N.land f 15 = 0.
Definition WfR (r : radio) : Prop := FlagsOk (flags r) /\ Forall (fun e => fst e < 6) (rx_fifo r).
Definition AllWf (w : world) : Prop := Forall WfR (radios w).

Lemma flags_or f m : FlagsOk f -> In m [16; 32; 64] -> FlagsOk (N.lor f m).
Proof.
  intros [H1 H2] Hm. split.
  - apply (N_lor_lt _ _ 7 H1). destruct Hm as [<-|[<-|[<-|[]]]]; reflexivity.
  - rewrite N.land_lor_distr_l, H2. destruct Hm as [<-|[<-|[<-|[]]]]; reflexivity.
Qed.

Lemma flags_and f y : FlagsOk f -> FlagsOk (N.land f y).
Proof.
  intros [H1 H2]. split; [exact (N_land_lt _ _ 7 H1)|].
  rewrite <- N.land_assoc, (N.land_comm y), N.land_assoc, H2. reflexivity.
Qed.

Lemma wf_reset b : WfR (reset_radio b).
Proof. split; [split; [cbn; lia|reflexivity]|constructor]. Qed.

Lemma wf_no_flags r : WfR r -> WfR (with_flags r 0).
Proof. intros [_ H]. split; [split; reflexivity|exact H]. Qed.

Lemma wf_set_sreg r a v : WfR r -> WfR (set_sreg r a v).
Proof. intro H. exact H. Qed.

Lemma wf_write_reg r a data : WfR r -> WfR (write_reg r a data).
Proof.
  intros W. unfold write_reg. destruct data as [|v t]; [exact W|].
  repeat match goal with |- context [if ?c then _ else _] => destruct c end; try exact W.
  split; [apply flags_and|]; apply W.
Qed.

Lemma wf_spi r mosi : WfR r -> WfR (fst (spi r mosi)).
Proof.
  intros W. pose proof W as [Hf Hq]. unfold spi. destruct mosi as [|cmd data]; [exact W|].
  destruct (cmd <? 32); [exact W|].
  destruct (cmd <? 64); [exact (wf_write_reg r _ data W)|].
  destruct (cmd =? 80).
  { destruct data as [|[|q] t]; try exact W.
    (* the pattern 115 is a path of seven binary digits *)
    do 7 (destruct q as [q|q|]; try exact W). cbn [fst]. destruct (is_plus r); exact W. }
  destruct (cmd =? 96); [exact W|].
  destruct (cmd =? 97).
  { destruct (rx_fifo r) as [|[p x] rest]; [exact W|]. exact (conj Hf (Forall_inv_tail Hq)). }
  repeat match goal with |- context [if ?c then _ else _] => destruct c end;
    first [exact W|split; [exact Hf|]; first [exact Hq|constructor]].
Qed.

(* a flag is latched and entries on pipes 0..5 join the RX FIFO *)
Lemma wf_latch r r' m q : WfR r -> In m [16; 32; 64] -> flags r' = N.lor (flags r) m ->
  rx_fifo r' = rx_fifo r ++ q -> Forall (fun e => fst e < 6) q -> WfR r'.
Proof.
  intros [Hf Hq] Hm Ef Eq Hn. unfold WfR. rewrite Ef, Eq. split; [exact (flags_or _ _ Hf Hm)|].
  apply Forall_app. split; assumption.
Qed.

Lemma wf_receive r p pid noack d h : WfR r -> p < 6 -> WfR (fst (fst (receive r p pid noack d h))).
Proof.
  intros W Hp.
  assert (W1 : WfR (received r p pid d)).
  { unfold received. destruct (_ || _); [exact W|]. apply (wf_latch r _ 64 [(p, d)] W); cbn; auto. }
  destruct (receive_cases r p pid noack d h) as [-> |(rest & ->)]; [exact W1|].
  apply (wf_latch _ _ 32 [] W1); cbn; auto using app_nil_r.
Qed.

Lemma wf_set_radio w i r : AllWf w -> WfR r -> AllWf (set_radio w i r).
Proof.
  unfold AllWf, set_radio. cbn [radios]. intros H Hr. revert i.
  induction H as [|x t Hx Ht IH]; intros [|i]; cbn [set_nth_radio]; constructor; auto.
Qed.

Lemma wf_get_radio w i : AllWf w -> WfR (get_radio w i).
Proof.
  intro H. unfold get_radio. destruct (Nat.lt_ge_cases i (length (radios w))) as [L|L].
  - unfold AllWf in H. rewrite Forall_forall in H. apply H. apply nth_In. exact L.
  - rewrite nth_overflow by exact L. apply wf_reset.
Qed.

Lemma wf_related w w' : rel_worlds (fun _ r r' => WfR r -> WfR r') w w' -> AllWf w -> AllWf w'.
Proof.
  intros [L H] Hw. apply Forall_forall. intros r Hr. apply (In_nth _ _ (reset_radio true)) in Hr.
  destruct Hr as (j & _ & <-). apply (H j). apply wf_get_radio. exact Hw.
Qed.

Lemma wf_exchange w si : AllWf w -> AllWf (exchange w si).
Proof.
  apply wf_related. apply exchange_rel; auto using wf_receive.
  - intros r a W. apply (wf_latch r _ 64 [(0, a)] W); cbn; auto. repeat constructor.
  - intros ok made r W. destruct ok; [apply (wf_latch r _ 32 [] W)|apply (wf_latch r _ 16 [] W)]; cbn; auto using app_nil_r.
Qed.

Lemma wf_settle n w : AllWf w -> AllWf (settle n w).
Proof. apply (settle_ind (fun w w' => AllWf w -> AllWf w')); auto using wf_exchange. Qed.

Theorem wf_w_spi w i mosi : AllWf w -> AllWf (fst (w_spi w i mosi)).
Proof.
  intro H. unfold w_spi.
  pose proof (wf_spi (get_radio w i) mosi (wf_get_radio w i H)) as Hs.
  destruct (spi (get_radio w i) mosi) as [r' miso]. cbn [fst] in Hs |- *.
  apply wf_settle. apply wf_set_radio; assumption.
Qed.

Theorem wf_w_ce w i v : AllWf w -> AllWf (w_ce w i v).
Proof.
  intro H. unfold w_ce. apply wf_settle. apply wf_set_radio; [exact H|]. exact (wf_get_radio w i H).
Qed.

Lemma wf_new_world plus o : AllWf (new_world plus o).
Proof. unfold AllWf, new_world. apply Forall_map, Forall_forall. intros b _. apply wf_reset. Qed.

Inductive busop := BSpi (i : nat) (mosi : list N) | BCe (i : nat) (v : bool) | BNow | BSleep (ns : N).
Definition bus_step (w : world) (o : busop) : world :=
  match o with
  | BSpi i m => fst (w_spi w i m)
  | BCe i v => w_ce w i v
  | BNow => fst (w_now w)
  | BSleep ns => w_sleep w ns
  end.

Theorem wf_reachable ops : forall w, AllWf w -> AllWf (fold_left bus_step ops w).
Proof.
  induction ops as [|o t IH]; cbn [fold_left]; intros w H; [exact H|]. apply IH.
  destruct o; cbn [bus_step]; [apply wf_w_spi|apply wf_w_ce| |]; exact H.
Qed.
