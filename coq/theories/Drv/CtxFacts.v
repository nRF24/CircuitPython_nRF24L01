(* CtxFacts.v -- the context manager at configuration level (C09): __exit__ always powers the radio down with CE low;
   __enter__ programs EVERY configuration register from the object's own cached attributes (assumed byte-sized: DrvOk),
   whatever state the radio was left in by other objects. *)
From Coq Require Import ZArith NArith Arith List Bool Lia.
From NRF Require Import Base.Bits Env.WorldFacts Env.CfgFacts Drv.RF24 Drv.RF24Sim Drv.CfgEval.
Import ListNotations.
Local Open Scope Z_scope.

Theorem exit_c d c : WfC c ->
  exists d' c', exit CB d c = (Ok tt, d', c')
    /\ c_ce c' = false
    /\ N.testbit (creg c' 0) 1 = false
    /\ d_config d' = Z.land (d_config d) 125
    /\ (forall a, a <> 0%N -> creg c' a = creg c a)
    /\ c_p0 c' = c_p0 c /\ c_p1 c' = c_p1 c /\ c_tx c' = c_tx c /\ WfC c'.
Proof.
  intros Hw. pose proof (Z_land_le (d_config d) 125 ltac:(lia)) as Hv. unfold exit.
  do 3 mstep idtac. mstep lia.
  eexists _, _. split; [reflexivity|]. cbn [b_ce b_sleep CB].
  split; [apply c_ce_cwrite|]. split.
  { rewrite creg_cwrite_same by (first [exact Hw|reflexivity]).
    rewrite N.land_spec, testbit_to_N, Z.land_spec by lia. change (Z.testbit 125 (Z.of_N 1)) with false.
    rewrite andb_false_r. reflexivity. }
  split; [reflexivity|]. split; [intros a Ha; rewrite creg_cwrite_other by (intro E; apply Ha; symmetry; exact E); reflexivity|].
  repeat split; try (apply WfC_cwrite; exact Hw); reflexivity.
Qed.

(* the cached attributes are byte-sized: every setter stores clamped or masked values (that the calls inside a block
   keep it so is checked by the correspondence run; proved only for __enter__, entered_ok, and the pipe alphabet, HInv) *)
Definition byte_z (v : Z) : Prop := 0 <= v <= 255.
Definition DrvOk (d : drv) : Prop :=
  byte_z (d_config d) /\ byte_z (d_rf_setup d) /\ byte_z (d_open_pipes d) /\ byte_z (d_dyn_pl d)
  /\ byte_z (d_aa d) /\ byte_z (d_features d) /\ byte_z (d_retry_setup d) /\ byte_z (d_channel d)
  /\ byte_z (d_addr_len d - 2)
  /\ length (d_pl_len d) = 6%nat
  /\ length (d_pipe0 d) = 5%nat /\ length (d_pipe1 d) = 5%nat /\ length (d_tx_address d) = 5%nat
  /\ length (d_pipes25 d) = 4%nat /\ Forall byte_z (d_pipes25 d).

Lemma DrvOk_intro d :
  byte_z (d_config d) -> byte_z (d_rf_setup d) -> byte_z (d_open_pipes d) -> byte_z (d_dyn_pl d) ->
  byte_z (d_aa d) -> byte_z (d_features d) -> byte_z (d_retry_setup d) -> byte_z (d_channel d) ->
  byte_z (d_addr_len d - 2) -> length (d_pl_len d) = 6%nat ->
  length (d_pipe0 d) = 5%nat -> length (d_pipe1 d) = 5%nat -> length (d_tx_address d) = 5%nat ->
  length (d_pipes25 d) = 4%nat -> Forall byte_z (d_pipes25 d) -> DrvOk d.
Proof. unfold DrvOk. intuition. Qed.

(* projections of an updated driver record *)
Ltac dsimp := cbn [d_in0 d_config d_rf_setup d_open_pipes d_dyn_pl d_aa d_features d_retry_setup d_channel d_addr_len
                   d_pl_len d_pipe0 d_pipe1 d_pipes25 d_tx_address d_pipe0_read_addr d_is_plus
                   upd_in0 upd_config upd_rf_setup upd_open_pipes upd_dyn_pl upd_aa upd_features upd_retry upd_channel
                   upd_addr_len upd_pl_len upd_pipe0 upd_pipe1 upd_pipes25 upd_tx_address upd_p0read upd_is_plus] in *.

Definition clamp_pl (v : Z) : Z := Z.max 1 (Z.min 32 v).

Lemma clamp_pl_byte v : 0 <= clamp_pl v <= 255.
Proof. unfold clamp_pl. lia. Qed.

Lemma lor2_byte v : byte_z v -> 0 <= Z.lor v 2 <= 255.
Proof. intros H. pose proof (Z_lor_lt v 2 8 ltac:(unfold byte_z in H; lia) ltac:(lia)). lia. Qed.

(* what __enter__ leaves in the radio: a function of the object's attributes only *)
Definition enter_regs (d : drv) : list (N * N) :=
  [ (0%N, N.land (Z.to_N (Z.lor (d_config d) 2)) 127);
    (6%N, N.land (Z.to_N (d_rf_setup d)) 191);
    (2%N, N.land (Z.to_N (d_open_pipes d)) 63);
    (28%N, N.land (Z.to_N (d_dyn_pl d)) 63);
    (1%N, N.land (Z.to_N (d_aa d)) 63);
    (29%N, N.land (Z.to_N (d_features d)) 7);
    (4%N, N.land (Z.to_N (d_retry_setup d)) 255);
    (12%N, N.land (Z.to_N (nth 0 (d_pipes25 d) 0)) 255);
    (13%N, N.land (Z.to_N (nth 1 (d_pipes25 d) 0)) 255);
    (14%N, N.land (Z.to_N (nth 2 (d_pipes25 d) 0)) 255);
    (15%N, N.land (Z.to_N (nth 3 (d_pipes25 d) 0)) 255);
    (17%N, N.land (Z.to_N (clamp_pl (nth 0 (d_pl_len d) 0))) 63);
    (18%N, N.land (Z.to_N (clamp_pl (nth 1 (d_pl_len d) 0))) 63);
    (19%N, N.land (Z.to_N (clamp_pl (nth 2 (d_pl_len d) 0))) 63);
    (20%N, N.land (Z.to_N (clamp_pl (nth 3 (d_pl_len d) 0))) 63);
    (21%N, N.land (Z.to_N (clamp_pl (nth 4 (d_pl_len d) 0))) 63);
    (22%N, N.land (Z.to_N (clamp_pl (nth 5 (d_pl_len d) 0))) 63);
    (5%N, N.land (Z.to_N (d_channel d)) 127);
    (3%N, N.land (Z.to_N (d_addr_len d - 2)) 3) ].

Lemma nth_byte l i : Forall byte_z l -> 0 <= nth i l 0 <= 255.
Proof.
  intro H. destruct (Nat.lt_ge_cases i (length l)) as [L|L].
  - exact (proj1 (Forall_nth _ _) H i 0 L).
  - rewrite nth_overflow by exact L. lia.
Qed.

Ltac side := first [lia | apply lor2_byte; assumption | apply clamp_pl_byte | apply nth_byte; assumption
                    | match goal with H : byte_z ?v |- _ <= ?v <= _ => exact H end ].

(* stepping never has to look inside these, and is cheaper when it cannot *)
Local Opaque Z.max Z.lor.

(* one round of the loop of __enter__: pipe i gets its address (pipes 0, 1: five bytes; 2..5: one byte) and its
   clamped static payload length *)
Definition pipe_bytes (d : drv) (i : nat) : list N :=
  match i with
  | O => d_pipe0 d
  | S O => d_pipe1 d
  | _ => [Z.to_N (nth (i - 2) (d_pipes25 d) 0)]
  end.

Lemma enter_pl_S i k d c : (i < 6)%nat -> Forall byte_z (d_pipes25 d) ->
  enter_pl CB i (S k) d c
  = enter_pl CB (S i) k
      (upd_in0 0 (upd_pl_len (set_nth_z (d_pl_len d) i (clamp_pl (pl_len_at d i))) d))
      (cwrite (cwrite c (N.of_nat (10 + i)) (pipe_bytes d i)) (N.of_nat (17 + i)) [Z.to_N (clamp_pl (pl_len_at d i))]).
Proof.
  intros Hi Hb. cbn [enter_pl]. unfold set_payload_length.
  replace (negb ((0 <=? Z.of_nat i) && (Z.of_nat i <=? 5))) with false by lia.
  mstep side.
  assert (E : (if Nat.ltb i 2
               then reg_write_bytes CB (10 + Z.of_nat i) (if Nat.eqb i 0 then d_pipe0 d else d_pipe1 d)
               else reg_write CB (10 + Z.of_nat i) (nth (i - 2) (d_pipes25 d) 0)) d c
              = (Ok tt, upd_in0 0 d, cwrite c (N.of_nat (10 + i)) (pipe_bytes d i))).
  { replace (N.of_nat (10 + i)) with (Z.to_N (10 + Z.of_nat i)) by lia.
    destruct i as [|[|i]]; cbn [Nat.ltb Nat.leb Nat.eqb pipe_bytes]; [apply reg_write_bytes_c; lia ..|].
    apply reg_write_c; [lia|apply nth_byte; exact Hb]. }
  erewrite bind_ok by exact E.
  do 3 mstep side.
  rewrite Nat2Z.id. replace (Z.to_N (17 + Z.of_nat i)) with (N.of_nat (17 + i)) by lia. reflexivity.
Qed.

Lemma cwrite_addr_full c d : WfC c -> length d = 5%nat ->
  c_p0 (cwrite c 10 d) = d /\ c_p1 (cwrite c 11 d) = d /\ c_tx (cwrite c 16 d) = d.
Proof.
  intros (_&W0&W1&W2&_) H. destruct d; [discriminate|].
  rewrite cwrite_p0, cwrite_p1, cwrite_tx. cbn [c_p0 c_p1 c_tx cset_addrs].
  rewrite !overlay_full by congruence. auto.
Qed.

(* the object after __enter__: PWR_UP in the cached CONFIG, the static payload lengths clamped *)
Definition entered (d : drv) : drv :=
  upd_in0 0 (upd_pl_len (map clamp_pl (d_pl_len d)) (upd_config (Z.lor (d_config d) 2) d)).

Lemma entered_ok d : DrvOk d -> DrvOk (entered d).
Proof.
  intros (D1&D2&D3&D4&D5&D6&D7&D8&D9&D10&D). pose proof (lor2_byte _ D1).
  unfold DrvOk, entered. cbn. rewrite map_length. auto 15.
Qed.

Theorem enter_c d c : WfC c -> DrvOk d ->
  exists c', enter CB d c = (Ok tt, entered d, c')
    /\ Forall (fun av => creg c' (fst av) = snd av) (enter_regs d)
    /\ c_p0 c' = d_pipe0 d /\ c_p1 c' = d_pipe1 d /\ c_tx c' = d_tx_address d
    /\ c_ce c' = false /\ WfC c'.
Proof.
  intros Hw Hd. pose proof Hd as (D1&D2&D3&D4&D5&D6&D7&D8&D9&D10&D11&D12&D13&D14&D15).
  unfold enter_regs, entered.
  destruct (d_pl_len d) as [|l0 [|l1 [|l2 [|l3 [|l4 [|l5 [|]]]]]]] eqn:Epl; try discriminate D10.
  unfold enter. do 10 mstep side.
  (* the loop, one round at a time; the driver state is kept in normal form so that it does not grow *)
  erewrite bind_ok.
  2:{ do 6 (rewrite enter_pl_S by (first [lia|exact D15]);
            unfold pl_len_at; cbn [d_pl_len d_pipe0 d_pipe1 d_pipes25 upd_pl_len upd_in0 upd_config pipe_bytes Nat.add Nat.sub];
            rewrite ?Epl; cbn [set_nth_z firstn skipn app nth Nat.add]).
      reflexivity. }
  do 3 mstep side. rewrite reg_write_c by side.
  eexists. split; [reflexivity|].
  cbn [d_config d_pl_len d_rf_setup d_open_pipes d_dyn_pl d_aa d_features d_retry_setup d_channel d_addr_len
       d_tx_address upd_pl_len upd_in0 upd_config].
  (* the configuration is now a tower of 22 writes to distinct registers: each is read through the writes above it *)
  split.
  { repeat (apply Forall_cons;
      [cbn [fst snd]; rewrite ?creg_cwrite_other by discriminate;
       rewrite creg_cwrite_same by (first [reflexivity | wfc]); reflexivity|]).
    apply Forall_nil. }
  split; [rewrite !c_p0_cwrite_other by discriminate; apply cwrite_addr_full; [wfc|exact D11]|].
  split; [rewrite !c_p1_cwrite_other by discriminate; apply cwrite_addr_full; [wfc|exact D12]|].
  split; [rewrite !c_tx_cwrite_other by discriminate; apply cwrite_addr_full; [wfc|exact D13]|].
  split; [rewrite !c_ce_cwrite; reflexivity|wfc].
Qed.
