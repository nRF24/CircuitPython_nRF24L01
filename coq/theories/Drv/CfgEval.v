(* CfgEval.v -- the driver on the configuration-level bus CB: what a register write does to a configuration record,
   observed register by register, and the register primitives as equations, with which a run is taken one bind at a
   time (`mstep`). *)
From Coq Require Import ZArith List Bool Lia.
From NRF Require Import Base.Bits Env.Radio Env.WorldFacts Env.CfgFacts Drv.RF24 Drv.RF24Sim.
Import ListNotations.
Local Open Scope Z_scope.

(* a configuration record of the right shape, with DYNPD / FEATURE writable: a plus radio, or a non-plus one after
   ACTIVATE; every write preserves it *)
Definition WfC (c : cfg) : Prop :=
  length (c_sregs c) = 30%nat /\ length (c_p0 c) = 5%nat /\ length (c_p1 c) = 5%nat
  /\ length (c_tx c) = 5%nat /\ c_act c = true.

Lemma set_nth_length l : forall i v, length (set_nth l i v) = length l.
Proof.
  induction l as [|x t IH]; intros i v; [reflexivity|].
  destruct i; cbn; [reflexivity|]. rewrite IH. reflexivity.
Qed.

Lemma nth_set_nth_same l : forall i v, (i < length l)%nat -> nth i (set_nth l i v) 0%N = v.
Proof.
  induction l as [|x t IH]; intros i v Hi; cbn in *; [lia|].
  destruct i; [reflexivity|]. apply IH. lia.
Qed.

Lemma nth_set_nth_other l : forall i j v, i <> j -> nth j (set_nth l i v) 0%N = nth j l 0%N.
Proof.
  induction l as [|x t IH]; intros i j v Hij; [destruct i; reflexivity|].
  destruct i, j; cbn; try reflexivity; [contradiction|]. apply IH. congruence.
Qed.

Lemma creg_cset_same c a v : (N.to_nat a < length (c_sregs c))%nat -> creg (cset c a v) a = v.
Proof. intros H. unfold creg, cset. apply nth_set_nth_same. exact H. Qed.

Lemma creg_cset_other c a b v : a <> b -> creg (cset c a v) b = creg c b.
Proof.
  intros H. unfold creg, cset. apply nth_set_nth_other. intros E. apply H. lia.
Qed.

Lemma overlay_length new old : length (overlay new old) = length old.
Proof.
  unfold overlay. rewrite firstn_length, app_length, skipn_length. lia.
Qed.

Lemma WfC_cset c a v : WfC c -> WfC (cset c a v).
Proof.
  intros (H1&H2&H3&H4&H5). unfold WfC, cset. cbn. rewrite set_nth_length. auto.
Qed.

Lemma WfC_cwrite c a data : WfC c -> WfC (cwrite c a data).
Proof.
  intros H. unfold cwrite. destruct data as [|v t]; [exact H|].
  repeat match goal with
         | |- context [if ?b then _ else _] => destruct b
         end; try exact H; try (apply WfC_cset; exact H);
    destruct H as (H1&H2&H3&H4&H5); unfold WfC, cset_addrs; cbn; rewrite ?overlay_length; auto.
Qed.

Lemma WfC_cset_ce c v : WfC c -> WfC (cset_ce c v).
Proof. intros H. exact H. Qed.

(* a is a single-byte configuration register (not an address, not STATUS, not read-only) *)
Definition sbyte (a : N) : bool :=
  negb ((a =? R_RX_ADDR_P0) || (a =? R_RX_ADDR_P1) || (a =? R_TX_ADDR) || (a =? R_STATUS) || (wmask a =? 0))%N.

(* DYNPD and FEATURE (28, 29) take writes only once activated, which WfC says they are *)
Lemma cwrite_sbyte c a v t : sbyte a = true -> WfC c \/ (a < 28)%N ->
  cwrite c a (v :: t) = cset c a (N.land v (wmask a)).
Proof.
  intros H Hact. unfold sbyte in H. apply negb_true_iff in H.
  repeat (apply orb_false_iff in H; destruct H as [H ?]).
  unfold cwrite. rewrite H. repeat match goal with E : (_ =? _)%N = false |- _ => rewrite E; clear E end.
  replace (((a =? R_DYNPD) || (a =? R_FEATURE))%N && negb (c_act c)) with false
    by (destruct Hact as [(_&_&_&_&->)|Ha]; [rewrite andb_false_r; reflexivity|unfold R_DYNPD, R_FEATURE; lia]).
  destruct (a =? R_RF_CH)%N; reflexivity.
Qed.

Ltac cwrite_cases := unfold cwrite; match goal with |- context [match ?d with [] => _ | _ => _ end] => destruct d end;
  repeat match goal with |- context [if ?x then _ else _] => destruct x eqn:? end; try reflexivity.

Lemma creg_cwrite_other c a b d : a <> b -> creg (cwrite c a d) b = creg c b.
Proof. intro H. cwrite_cases; apply creg_cset_other; exact H. Qed.

Lemma creg_cwrite_same c a v t : WfC c -> sbyte a = true -> (a < 30)%N ->
  creg (cwrite c a (v :: t)) a = N.land v (wmask a).
Proof.
  intros Hw Hs Ha. rewrite cwrite_sbyte by auto. apply creg_cset_same. destruct Hw as (->&_). lia.
Qed.

Lemma c_p0_cwrite_other c a d : a <> 10%N -> c_p0 (cwrite c a d) = c_p0 c.
Proof. intro H. cwrite_cases. exfalso. apply H, N.eqb_eq. assumption. Qed.
Lemma c_p1_cwrite_other c a d : a <> 11%N -> c_p1 (cwrite c a d) = c_p1 c.
Proof. intro H. cwrite_cases. exfalso. apply H, N.eqb_eq. assumption. Qed.
Lemma c_tx_cwrite_other c a d : a <> 16%N -> c_tx (cwrite c a d) = c_tx c.
Proof. intro H. cwrite_cases. exfalso. apply H, N.eqb_eq. assumption. Qed.
Lemma c_ce_cwrite c a d : c_ce (cwrite c a d) = c_ce c.
Proof. cwrite_cases. Qed.

Lemma c_p0_cwrite_same c d : c_p0 (cwrite c 10 d) = overlay d (c_p0 c).
Proof. destruct d; [symmetry; apply firstn_all|reflexivity]. Qed.
Lemma c_p1_cwrite_same c d : c_p1 (cwrite c 11 d) = overlay d (c_p1 c).
Proof. destruct d; [symmetry; apply firstn_all|reflexivity]. Qed.
Lemma c_tx_cwrite_same c d : c_tx (cwrite c 16 d) = overlay d (c_tx c).
Proof. destruct d; [symmetry; apply firstn_all|reflexivity]. Qed.

(* an address register takes the bytes written, from the least significant end *)
Lemma cwrite_p0 c a0 at_ : cwrite c 10 (a0 :: at_) = cset_addrs c (overlay (a0 :: at_) (c_p0 c)) (c_p1 c) (c_tx c).
Proof. reflexivity. Qed.
Lemma cwrite_p1 c a0 at_ : cwrite c 11 (a0 :: at_) = cset_addrs c (c_p0 c) (overlay (a0 :: at_) (c_p1 c)) (c_tx c).
Proof. reflexivity. Qed.
Lemma cwrite_tx c a0 at_ : cwrite c 16 (a0 :: at_) = cset_addrs c (c_p0 c) (c_p1 c) (overlay (a0 :: at_) (c_tx c)).
Proof. reflexivity. Qed.

Lemma overlay_full (a old : list N) : length a = length old -> overlay a old = a.
Proof.
  intros H. unfold overlay. rewrite skipn_all2 by lia. rewrite app_nil_r.
  rewrite <- H. apply firstn_all.
Qed.

Lemma cwrite_p0_idle c : cwrite c 10 (c_p0 c) = c.
Proof.
  destruct c as [s [|a0 at_] p1 tx ce act plus]; cbn [c_p0]; [reflexivity|].
  rewrite cwrite_p0. rewrite overlay_full by reflexivity. reflexivity.
Qed.

Lemma creg_cset_ce c v a : creg (cset_ce c v) a = creg c a.
Proof. reflexivity. Qed.

Lemma creg_cwrite_fits c a v k : WfC c -> sbyte (Z.to_N a) = true -> (Z.to_N a < 30)%N -> wmask (Z.to_N a) = N.ones k ->
  0 <= v < Z.of_N (2 ^ k) -> creg (cwrite c (Z.to_N a) [Z.to_N v]) (Z.to_N a) = Z.to_N v.
Proof.
  intros Hw Hs Ha Hm Hv. rewrite creg_cwrite_same, Hm, N.land_ones by assumption. apply N.mod_small. lia.
Qed.
(* CONFIG, EN_AA, EN_RXADDR: in the shape the invariant proofs of PipeHist.v meet them (the register number as the driver
   passes it, the value's byte range and its bound as two facts) *)
Lemma creg_write0 c v : WfC c -> 0 <= v <= 255 -> v < 128 -> creg (cwrite c (Z.to_N 0) [Z.to_N v]) 0 = Z.to_N v.
Proof. intros. apply (creg_cwrite_fits c 0 v 7); first [reflexivity|assumption|lia]. Qed.
Lemma creg_write1 c v : WfC c -> 0 <= v <= 255 -> v < 64 -> creg (cwrite c (Z.to_N 1) [Z.to_N v]) 1 = Z.to_N v.
Proof. intros. apply (creg_cwrite_fits c 1 v 6); first [reflexivity|assumption|lia]. Qed.
Lemma creg_write2 c v : WfC c -> 0 <= v <= 255 -> v < 64 -> creg (cwrite c (Z.to_N 2) [Z.to_N v]) 2 = Z.to_N v.
Proof. intros. apply (creg_cwrite_fits c 2 v 6); first [reflexivity|assumption|lia]. Qed.

Lemma creg_write2_bit0 c v : WfC c -> 0 <= v <= 255 ->
  N.testbit (creg (cwrite c (Z.to_N 2) [Z.to_N v]) 2) 0 = Z.testbit v 0.
Proof.
  intros Hw Hv. rewrite creg_cwrite_same by (first [reflexivity|exact Hw]).
  rewrite N.land_spec, testbit_to_N by lia. apply andb_true_r.
Qed.

Ltac wfc := repeat first [apply WfC_cwrite | apply WfC_cset_ce]; assumption.

(* reads the observations of a configuration built by register writes down to the one underneath; the register
   numbers are literals, which `discriminate` tells apart, or come with a hypothesis that does *)
Ltac obs :=
  let apart := first [discriminate | assumption] in
  cbn [Z.to_N];
  repeat first [ progress cbn [c_ce c_p0 c_p1 c_tx cset_ce]
               | rewrite creg_cset_ce | rewrite c_ce_cwrite
               | match goal with |- context [creg (cwrite ?c ?a ?d) ?b] =>
                   rewrite (creg_cwrite_other c a b d) by apart end
               | rewrite c_p0_cwrite_other by apart
               | rewrite c_tx_cwrite_other by apart
               | rewrite c_p0_cwrite_same | rewrite c_tx_cwrite_same ].

(* list updates the Python way: lst[i] = v *)
Lemma set_nth_z_length l i v : (i < length l)%nat -> length (set_nth_z l i v) = length l.
Proof. intro H. unfold set_nth_z. rewrite !app_length, firstn_length, skipn_length. cbn [length]. lia. Qed.

Lemma Forall_set_nth_z (P : Z -> Prop) l : forall i v, Forall P l -> P v -> Forall P (set_nth_z l i v).
Proof.
  unfold set_nth_z. induction l as [|x t IH]; intros i v H Hv.
  - rewrite firstn_nil, skipn_nil. repeat constructor. exact Hv.
  - inversion H; subst. destruct i; cbn; constructor; auto. exact (IH i v ltac:(assumption) Hv).
Qed.

(* W_REGISTER | reg *)
Lemma lor32 reg : 0 <= reg < 32 -> Z.lor 32 reg = 32 + reg.
Proof. intro H. exact (lor_shiftl_add 1 reg 5 ltac:(lia) H). Qed.

Lemma lor32_range reg : 0 <= reg < 32 -> 0 <= Z.lor 32 reg <= 255.
Proof. intros H. rewrite lor32 by exact H. lia. Qed.

Lemma as_byte_ok {bus} v : 0 <= v <= 255 -> @as_byte bus v = ret (Z.to_N v).
Proof.
  intros H. unfold as_byte.
  replace ((0 <=? v) && (v <=? 255)) with true; [reflexivity|].
  symmetry. apply andb_true_iff. split; apply Z.leb_le; lia.
Qed.

Lemma xfer_c mosi d c :
  xfer CB mosi d c = (Ok (0%N :: snd (cspi c mosi)), upd_in0 0 d, fst (cspi c mosi)).
Proof. unfold xfer. cbn [b_spi CB]. destruct (cspi c mosi). reflexivity. Qed.

Lemma cspi_write c reg data : 0 <= reg < 32 ->
  fst (cspi c (Z.to_N (Z.lor 32 reg) :: data)) = cwrite c (Z.to_N reg) data.
Proof.
  intro Hr. rewrite lor32 by exact Hr. unfold cspi.
  replace (Z.to_N (32 + reg) <? 32)%N with false by (symmetry; apply N.ltb_ge; lia).
  replace (Z.to_N (32 + reg) <? 64)%N with true by (symmetry; apply N.ltb_lt; lia).
  replace (Z.to_N (32 + reg) - 32)%N with (Z.to_N reg) by lia. reflexivity.
Qed.

Lemma reg_write_c reg v d c : 0 <= reg < 32 -> 0 <= v <= 255 ->
  reg_write CB reg v d c = (Ok tt, upd_in0 0 d, cwrite c (Z.to_N reg) [Z.to_N v]).
Proof.
  intros Hr Hv. unfold reg_write.
  replace (reg =? 80) with false by (symmetry; apply Z.eqb_neq; lia).
  rewrite !(@as_byte_ok cfg) by (first [exact Hv|apply lor32_range; exact Hr]).
  unfold bind, ret. rewrite xfer_c, cspi_write by exact Hr. reflexivity.
Qed.

Lemma reg_write_bytes_c reg buf d c : 0 <= reg < 32 ->
  reg_write_bytes CB reg buf d c = (Ok tt, upd_in0 0 d, cwrite c (Z.to_N reg) buf).
Proof.
  intros Hr. unfold reg_write_bytes. rewrite (@as_byte_ok cfg) by (apply lor32_range; exact Hr).
  unfold bind, ret. rewrite xfer_c, cspi_write by exact Hr. reflexivity.
Qed.

Lemma reg_read_c reg d c : 0 <= reg < 32 ->
  reg_read CB reg d c = (Ok (Z.of_N (hd 0%N (cread c (Z.to_N reg) 1))), upd_in0 0 d, c).
Proof.
  intros Hr. unfold reg_read.
  rewrite (@as_byte_ok cfg) by lia.
  unfold bind at 1. unfold ret at 1. unfold bind. rewrite xfer_c. unfold ret, cspi.
  replace (Z.to_N reg <? 32)%N with true by (symmetry; apply N.ltb_lt; lia).
  cbn [fst snd length nth]. f_equal. f_equal. f_equal.
  destruct (cread c (Z.to_N reg) 1); reflexivity.
Qed.

Definition plain (a : N) : bool :=
  negb ((a =? R_RX_ADDR_P0) || (a =? R_RX_ADDR_P1) || (a =? R_TX_ADDR) || (a =? R_DYNPD) || (a =? R_FEATURE))%N.

Lemma cread_plain c a : plain a = true -> cread c a 1 = [creg c a].
Proof.
  unfold plain, cread. intros H. apply negb_true_iff in H.
  repeat (apply orb_false_iff in H; destruct H as [H ?]).
  rewrite H. repeat match goal with E : (_ =? _)%N = false |- _ => rewrite E; clear E end.
  reflexivity.
Qed.

Lemma cread_feature c a : WfC c -> (a = R_DYNPD \/ a = R_FEATURE) -> cread c a 1 = [creg c a].
Proof.
  intros (_&_&_&_&Hact) [-> | ->]; unfold cread; cbn; rewrite Hact; reflexivity.
Qed.

Lemma command_c x d c : 64 <= x <= 255 -> x <> 80 ->
  command CB x d c = (Ok tt, upd_in0 0 d, c).
Proof.
  intros Hx Hn. unfold command. rewrite (@as_byte_ok cfg) by lia.
  unfold bind at 1. unfold ret at 1. unfold bind. rewrite xfer_c. unfold ret, cspi.
  replace (Z.to_N x <? 32)%N with false by (symmetry; apply N.ltb_ge; lia).
  replace (Z.to_N x <? 64)%N with false by (symmetry; apply N.ltb_ge; lia).
  replace (Z.to_N x =? 80)%N with false by (symmetry; apply N.eqb_neq; lia).
  reflexivity.
Qed.

Lemma listen_delay_c s d c : listen_delay CB s d c = (Ok tt, d, c).
Proof.
  unfold listen_delay, bind, now, sleep, ret. cbn [b_now b_sleep CB].
  destruct (_ <? _)%N; reflexivity.
Qed.

Lemma set_ce_c v d c : set_ce CB v d c = (Ok tt, d, cset_ce c v).
Proof. reflexivity. Qed.

Lemma bind_exn {A B} (m : M (bus := cfg) A) (f : A -> M B) d c e d1 c1 :
  m d c = (Exn e, d1, c1) -> bind m f d c = (Exn e, d1, c1).
Proof. intros H. unfold bind. rewrite H. reflexivity. Qed.

Lemma bind_assoc {A B C} (m : M (bus := cfg) A) (f : A -> M B) (g : B -> M C) d c :
  bind (bind m f) g d c = bind m (fun a => bind (f a) g) d c.
Proof. unfold bind. destruct (m d c) as [[[a|e] d1] c1]; reflexivity. Qed.

(* side conditions of the stepping lemmas without arithmetic: a range with literal ends, or a fact at hand
   (`lia` pays for every hypothesis of the long contexts these proofs build up) *)
Ltac side0 := first [split; [discriminate | first [reflexivity | discriminate]] | assumption | solve [auto]].

(* `mstep side` takes the first bind of a run `bind m f d c`: m is a primitive, its equation gives `m d c = (Ok a, d1, c1)`
   (`msolve`; `side` discharges the equation's ranges), and the goal goes on with `f a d1 c1`.  The last call of a body
   stands under no bind and is rewritten with its equation directly. *)
Ltac msolve side :=
  match goal with
  | |- get _ _ = _ => reflexivity
  | |- modify _ _ _ = _ => reflexivity
  | |- ret _ _ _ = _ => reflexivity
  | |- set_ce _ _ _ _ = _ => reflexivity
  | |- now _ _ _ = _ => reflexivity
  | |- reg_write _ _ _ _ _ = _ => apply reg_write_c; side
  | |- reg_write_bytes _ _ _ _ _ = _ => apply reg_write_bytes_c; side
  | |- reg_read _ _ _ _ = _ => apply reg_read_c; side
  end.

Ltac mstep side := rewrite ?bind_assoc; erewrite bind_ok; [ | msolve side ].
