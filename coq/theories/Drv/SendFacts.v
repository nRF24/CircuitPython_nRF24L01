(* SendFacts.v -- the steps of send() and write() from which Props/C02.v and Props/C01.v conclude that send()
   reports what the radio did, for a transmitter in a world where no other radio transmits.  Each SPI transfer /
   CE change of radio `me` is followed by `settle`, which in such a world does nothing until CE goes high with a
   payload queued, and then performs exactly one exchange (Env/QuietFacts.v).  Until then the world is the initial
   one with another radio `me` and another clock (`put`), so the driver runs on that one radio (`runs`): the bus
   operations and the calls made of them are steps r -> r' of a radio, composed with `runs_bind`; a world enters
   only where a theorem speaks of one, and at the exchange. *)
From Coq Require Import ZArith List Bool.
From NRF Require Import Env.Radio Env.World Env.RadioFacts Env.WorldFacts Env.WfFacts Env.QuietFacts
     Drv.RF24 Drv.RF24Sim Drv.AccessFacts.
Import ListNotations.
Local Open Scope N_scope.

Section OnRadio.
  Variable me : nat.
  Notation W := (WB me).

  Lemma length_tick w ns : length (radios (tick w ns)) = length (radios w).
  Proof. reflexivity. Qed.

  Lemma wfr_same_dyn r r' : flags r' = flags r -> rx_fifo r' = rx_fifo r -> WfR r -> WfR r'.
  Proof. intros F R [Hf Hq]. split; [rewrite F; exact Hf|rewrite R; exact Hq]. Qed.

  Definition Q (w : world) : Prop := OthersPassive w me /\ (me < length (radios w))%nat.

  (* w0 with r for radio me, at time c: the worlds a call of the driver on radio me passes through until it transmits *)
  Definition put (w0 : world) (r : radio) (c : N) : world :=
    mkWorld (set_nth_radio (radios w0) me r) (oracle w0) (air w0) c.

  Lemma put_init w : Q w -> put w (get_radio w me) (clock w) = w.
  Proof. intros [_ L]. unfold put, get_radio. rewrite set_nth_radio_id by exact L. destruct w; reflexivity. Qed.

  Lemma put_quiet w0 r c : Q w0 -> Q (put w0 r c).
  Proof.
    intros [P L]. split; [exact (others_passive_set_me w0 me r P)|]. unfold put. cbn [radios].
    rewrite set_nth_radio_length. exact L.
  Qed.

  Lemma get_put w0 r c : Q w0 -> get_radio (put w0 r c) me = r.
  Proof. intros [_ L]. exact (get_set_radio_same w0 me r L). Qed.

  Lemma put_put w0 r c r' : set_radio (put w0 r c) me r' = put w0 r' c.
  Proof. unfold set_radio, put. cbn [radios oracle air clock]. rewrite set_nth_radio_twice. reflexivity. Qed.

  Lemma put_idle n w0 r c : Q w0 -> can_tx r = false -> settle n (put w0 r c) = put w0 r c.
  Proof.
    intros H Hc. destruct (put_quiet w0 r c H) as [P L]. apply (settle_idle n _ me P). rewrite get_put; assumption.
  Qed.

  (* m, run in driver state d on radio r of a quiet world, returns a in driver state d' and leaves the radio as r',
     nothing having been transmitted *)
  Definition runs {A} (m : M A) (d : drv) (r : radio) (a : A) (d' : drv) (r' : radio) : Prop :=
    forall w0 c, Q w0 -> exists c', m d (put w0 r c) = (Ok a, d', put w0 r' c').

  Lemma runs_pure {A} {m : M A} {d a d'} r : (forall w, m d w = (Ok a, d', w)) -> runs m d r a d' r.
  Proof. intros H w0 c _. exists c. apply H. Qed.

  Lemma runs_ret {A} (a : A) {d r} : runs (ret a) d r a d r.
  Proof. exact (runs_pure r (fun _ => eq_refl)). Qed.

  Lemma runs_bind {A B} {m : M A} {f : A -> M B} {d r a d1 r1 b d2 r2} :
    runs m d r a d1 r1 -> runs (f a) d1 r1 b d2 r2 -> runs (bind m f) d r b d2 r2.
  Proof.
    intros H1 H2 w0 c H. destruct (H1 w0 c H) as (c1 & E1). destruct (H2 w0 c1 H) as (c2 & E2).
    exists c2. rewrite (bind_ok E1). exact E2.
  Qed.

  Lemma runs_ce v d {r} : can_tx (with_ce r v) = false -> runs (set_ce W v) d r tt d (with_ce r v).
  Proof.
    intros Hc w0 c H. exists c. unfold set_ce. cbn [b_ce WB]. unfold w_ce.
    rewrite (get_put w0 r c H), put_put, (put_idle 8 w0 _ c H Hc). reflexivity.
  Qed.

  (* one transfer and a function of its reply.  Every register primitive of the driver (reg_read, reg_read_bytes,
     reg_write, reg_write_bytes, command) is this behind a byte test on the command, which computes when the command
     is a literal: `runs_xfer 97 .. (@tl N) ..` then has the type `runs (reg_read_bytes W 97 ..) ..`. *)
  Lemma runs_xfer {A} cmd data (g : list N -> A) {d r r' miso} : spi r (cmd :: data) = (r', miso) -> can_tx r' = false ->
    runs (bind (xfer W (cmd :: data)) (fun miso => ret (g miso))) d r (g miso) (upd_in0 (status r) d) r'.
  Proof.
    intros E Hc w0 c H. exists (c + SPI_COST). pose proof (spi_status_first r cmd data) as S. rewrite E in S.
    unfold bind, xfer. cbn [b_spi WB]. unfold w_spi.
    rewrite (get_put w0 r c H), E, put_put, (put_idle 8 w0 r' c H Hc), <- S. reflexivity.
  Qed.

  Lemma runs_update d {r} : can_tx r = false -> runs (update W) d r true (upd_in0 (status r) d) r.
  Proof. intro Hc. exact (runs_bind (runs_xfer 255 [] (fun _ => tt) eq_refl Hc) (runs_ret true)). Qed.

  (* W_REGISTER STATUS: a 1 clears the flag; no flag starts a transmission while the radio is not active *)
  Lemma runs_clear_flags dr ds df d {r} : active r = false ->
    runs (clear_status_flags W dr ds df) d r tt (upd_in0 (status r) d)
         (with_flags r (N.land (flags r) ((if dr then 0 else 64) + (if ds then 0 else 32) + (if df then 0 else 16)))).
  Proof.
    intro Hi. destruct dr, ds, df; exact (runs_xfer 39 [_] (fun _ => tt) eq_refl (can_tx_idle (with_flags r _) Hi)).
  Qed.

  (* W_TX_PAYLOAD / W_TX_PAYLOAD_NOACK with room in the TX FIFO *)
  Definition loaded (r : radio) (noack : bool) (b : list N) : radio :=
    with_pid (with_fifos r (rx_fifo r) (tx_fifo r ++ [mkTx (if noack then TxNoAck else TxNormal) (next_pid r) b]))
             (N.land (next_pid r + 1) 3).

  Lemma runs_load noack b d {r} : active r = false -> tx_full r = false ->
    runs (reg_write_bytes W (Z.lor 160 (Z.shiftl (zb noack) 4)) b) d r tt (upd_in0 (status r) d) (loaded r noack b).
  Proof.
    intros Hi Hf. destruct noack; refine (runs_xfer _ b (fun _ => tt) _ (can_tx_idle (loaded r _ b) Hi));
      unfold spi, loaded; rewrite Hf; reflexivity.
  Qed.

  Lemma max_rt_48 r : max_rt r = N.testbit (N.land (flags r) 48) 4.
  Proof. unfold max_rt, bitb. rewrite N.land_spec. symmetry. apply andb_true_r. Qed.

  (* the exchange of the only queued payload, started with TX_DS and MAX_RT clear, latches one of them, TX_DS exactly
     on success; radio me cannot transmit afterwards: its TX FIFO is empty, or MAX_RT is set *)
  Lemma exchange_sole w e : (me < length (radios w))%nat ->
    tx_fifo (get_radio w me) = [e] -> N.land (flags (get_radio w me)) 48 = 0 ->
    let s' := get_radio (exchange w me) me in
    N.land (flags s') 48 = (if exchange_ok w me then 32 else 16) /\ can_tx s' = false.
  Proof.
    intros L Ht F0 s'. destruct (exchange_transmitter w me e [] L Ht) as (s1 & [T F] & Hres & _). fold s' in Hres.
    rewrite F0 in F. rewrite can_tx_active, max_rt_48.
    destruct (exchange_ok w me); destruct Hres as [-> Hq]; rewrite N.land_lor_distr_l, F.
    - rewrite Hq, T, Ht. split; [reflexivity|apply andb_false_r].
    - rewrite andb_false_r. split; reflexivity.
  Qed.

  (* self.ce_pin = True in TX mode with exactly one payload queued and TX_DS, MAX_RT clear: one exchange, after which
     the world is quiet again and a polled STATUS byte shows one of the two flags, TX_DS exactly on success *)
  Lemma ce_high_put d w0 r c e : Q w0 -> AllWf w0 -> WfR r ->
    active (with_ce r true) = true -> N.land (flags r) 48 = 0 -> tx_fifo r = [e] ->
    let wpre := put w0 (with_ce r true) c in
    let w' := exchange wpre me in
    let d' := upd_in0 (status (get_radio w' me)) d in
    set_ce W true d (put w0 r c) = (Ok tt, d, w') /\ Q w' /\ can_tx (get_radio w' me) = false /\
    st_bit d' 48 = true /\ st_bit d' 32 = exchange_ok wpre me.
  Proof.
    intros H Hwf Wr Hact F0 Ht wpre w' d'. destruct (put_quiet w0 (with_ce r true) c H) as [P L]. fold wpre in P, L.
    pose proof (get_put w0 (with_ce r true) c H : get_radio wpre me = with_ce r true) as G.
    destruct (exchange_sole wpre e L) as [F C]; [rewrite G; exact Ht|rewrite G; exact F0|]. fold w' in F, C.
    split; [|split; [split|split; [exact C|]]].
    - unfold set_ce. cbn [b_ce WB]. unfold w_ce. rewrite (get_put w0 r c H), put_put. f_equal.
      apply (settle_once 7 wpre me P); [|exact C].
      rewrite G, can_tx_active, Hact, max_rt_48. cbn [flags with_ce tx_fifo]. rewrite F0, Ht. reflexivity.
    - apply (others_passive_same_cfg wpre); [apply exchange_cfg|exact P].
    - unfold w'. rewrite exchange_length. exact L.
    - unfold st_bit, d'.
      assert (Ws : WfR (get_radio w' me)) by (apply wf_get_radio, wf_exchange, wf_set_radio; assumption).
      rewrite !(status_flags _ _ Ws eq_refl).
      replace (N.land _ 32) with (N.land (N.land (flags (get_radio w' me)) 48) 32) by (rewrite <- N.land_assoc; reflexivity).
      rewrite F. destruct (exchange_ok wpre me); split; reflexivity.
  Qed.

  (* while not self._in[0] & 0x30: self.update() -- when the first update() brings a flag *)
  Lemma runs_wait_flags k d {r} : can_tx r = false -> st_bit d 48 = false ->
    st_bit (upd_in0 (status r) d) 48 = true -> runs (wait_flags W (S k)) d r tt (upd_in0 (status r) d) r.
  Proof.
    intros Hc B B' w0 c H. destruct (runs_update d Hc w0 c H) as (c' & E). exists c'.
    cbn [wait_flags]. unfold bind at 1, get at 1. rewrite B, (bind_ok E).
    destruct k; cbn [wait_flags]; unfold bind, get; rewrite B'; reflexivity.
  Qed.

  (* write() on a radio that is not active: the flags are cleared; refused when the STATUS byte of that transfer
     says TX_FULL, else the payload is loaded and, unless write_only, CE raised *)
  Lemma write_put d buf b noack wo w0 r c : Q w0 -> WfR r -> active r = false -> norm_payload d buf = Ok b ->
    let r1 := with_flags r 0 in
    let d1 := upd_in0 (status r) d in
    exists c',
      write W buf noack wo d (put w0 r c)
      = if tx_full r then (Ok false, d1, put w0 r1 c')
        else bind (if wo then ret tt else set_ce W true) (fun _ => ret true) (upd_in0 (status r1) d1)
                  (put w0 (loaded r1 noack b) c').
  Proof.
    intros H Wr Hi Hn r1 d1.
    destruct (runs_clear_flags true true true d Hi w0 c H) as (c1 & E1). rewrite N.land_0_r in E1.
    unfold write. cbn [bind get]. rewrite Hn, (bind_ok E1). cbn [bind get]. fold d1.
    replace (st_bit d1 1) with (tx_full r) by (symmetry; apply (status_decode r Wr)).
    destruct (tx_full r) eqn:Ef.
    - exists c1. reflexivity.
    - destruct (runs_load noack b d1 (r := r1) Hi Ef w0 c1 H) as (c2 & E2). exists c2. exact (bind_ok E2).
  Qed.
End OnRadio.
