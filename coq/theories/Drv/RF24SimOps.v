(* RF24SimOps.v -- every configuration method of the driver, run on radio `me` of any
   world, simulates its configuration-level run (see RF24Sim.v). *)
From Coq Require Import ZArith NArith Arith List Bool Lia.
From NRF Require Import Base.Sweep Env.CfgFacts Drv.RF24 Drv.RF24Sim.
Import ListNotations.
Local Open Scope Z_scope.

(* Every proof below is the same walk down the method body, done by `auto`: a bind by the first of sim_bind_get,
   sim_bind, sim_bind_any that fits (their side conditions hold by computation), a branch on the same condition
   in both runs by cases, a primitive by its lemma, a method called from another by the lemma proved for it.
   The constants are opaque to the search so that a hint is tried only where its method or primitive stands. *)
Create HintDb simdb discriminated.
#[local] Hint Constants Opaque : simdb.
#[local] Hint Resolve sim_ret sim_raise sim_put sim_modify sim_set_ce sim_sleep sim_listen_delay simR_now
  sim_reg_read sim_reg_read_bytes sim_reg_write sim_reg_write_bytes sim_command : simdb.
#[local] Hint Resolve sim_bind_get | 1 : simdb.
#[local] Hint Resolve sim_bind | 2 : simdb.
#[local] Hint Resolve sim_bind_any | 3 : simdb.
#[local] Hint Extern 0 (_ = _) => reflexivity : simdb.
#[local] Hint Extern 2 (sim _ (match ?x with _ => _ end) _) => destruct x : simdb.

(* depth: one per bind or branch along the longest path of a body *)
Local Ltac go := auto 40 with simdb nocore.

Section Ops.
  Variable me : nat.
  Notation W := (WB me).

  Lemma sim_set_channel ch : sim me (set_channel W ch) (set_channel CB ch).
  Proof. unfold set_channel. go. Qed.
  Lemma sim_get_channel : sim me (get_channel W) (get_channel CB).
  Proof. unfold get_channel. go. Qed.
  Lemma sim_set_data_rate s : sim me (set_data_rate W s) (set_data_rate CB s).
  Proof. unfold set_data_rate. go. Qed.
  Lemma sim_get_data_rate : sim me (get_data_rate W) (get_data_rate CB).
  Proof. unfold get_data_rate. go. Qed.
  Lemma sim_set_crc l : sim me (set_crc W l) (set_crc CB l).
  Proof. unfold set_crc. go. Qed.
  Lemma sim_get_crc : sim me (get_crc W) (get_crc CB).
  Proof. unfold get_crc. go. Qed.
  Lemma sim_set_pa_level p : sim me (set_pa_level W p) (set_pa_level CB p).
  Proof. unfold set_pa_level. go. Qed.
  Lemma sim_get_pa_level : sim me (get_pa_level W) (get_pa_level CB).
  Proof. unfold get_pa_level. go. Qed.
  Lemma sim_get_is_lna_enabled : sim me (get_is_lna_enabled W) (get_is_lna_enabled CB).
  Proof. unfold get_is_lna_enabled. go. Qed.

  Lemma sim_set_arc c : sim me (set_arc W c) (set_arc CB c).
  Proof. unfold set_arc. go. Qed.
  Lemma sim_get_arc : sim me (get_arc W) (get_arc CB).
  Proof. unfold get_arc. go. Qed.
  Lemma sim_set_ard c : sim me (set_ard W c) (set_ard CB c).
  Proof. unfold set_ard. go. Qed.
  Lemma sim_get_ard : sim me (get_ard W) (get_ard CB).
  Proof. unfold get_ard. go. Qed.
  Lemma sim_set_auto_retries a b : sim me (set_auto_retries W a b) (set_auto_retries CB a b).
  Proof. unfold set_auto_retries. go. Qed.
  #[local] Hint Resolve sim_get_ard : simdb.
  Lemma sim_get_auto_retries : sim me (get_auto_retries W) (get_auto_retries CB).
  Proof. unfold get_auto_retries. go. Qed.

  Lemma sim_set_address_length l : sim me (set_address_length W l) (set_address_length CB l).
  Proof. unfold set_address_length. go. Qed.
  Lemma sim_get_address_length : sim me (get_address_length W) (get_address_length CB).
  Proof. unfold get_address_length. go. Qed.
  Lemma sim_set_power b : sim me (set_power W b) (set_power CB b).
  Proof. unfold set_power. go. Qed.
  Lemma sim_get_power : sim me (get_power W) (get_power CB).
  Proof. unfold get_power. go. Qed.
  #[local] Hint Resolve sim_get_power : simdb.
  Lemma sim_get_listen : sim me (get_listen W) (get_listen CB).
  Proof. unfold get_listen. go. Qed.
  Lemma sim_interrupt_config a b c : sim me (interrupt_config W a b c) (interrupt_config CB a b c).
  Proof. unfold interrupt_config. go. Qed.
  Lemma sim_flush_tx : sim me (flush_tx W) (flush_tx CB).
  Proof. unfold flush_tx. go. Qed.
  Lemma sim_flush_rx : sim me (flush_rx W) (flush_rx CB).
  Proof. unfold flush_rx. go. Qed.
  #[local] Hint Resolve sim_flush_tx sim_flush_rx : simdb.

  Lemma sim_set_auto_ack_attr v : sim me (set_auto_ack_attr W v) (set_auto_ack_attr CB v).
  Proof. unfold set_auto_ack_attr. go. Qed.
  Lemma sim_get_auto_ack_attr : sim me (get_auto_ack_attr W) (get_auto_ack_attr CB).
  Proof. unfold get_auto_ack_attr. go. Qed.
  #[local] Hint Resolve sim_set_auto_ack_attr sim_get_auto_ack_attr : simdb.
  Lemma sim_set_auto_ack b p : sim me (set_auto_ack W b p) (set_auto_ack CB b p).
  Proof. unfold set_auto_ack. go. Qed.
  Lemma sim_get_auto_ack p : sim me (get_auto_ack W p) (get_auto_ack CB p).
  Proof. unfold get_auto_ack. go. Qed.
  Lemma sim_set_dynamic_payloads_attr v :
    sim me (set_dynamic_payloads_attr W v) (set_dynamic_payloads_attr CB v).
  Proof. unfold set_dynamic_payloads_attr. go. Qed.
  Lemma sim_get_dynamic_payloads_attr : sim me (get_dynamic_payloads_attr W) (get_dynamic_payloads_attr CB).
  Proof. unfold get_dynamic_payloads_attr. go. Qed.
  #[local] Hint Resolve sim_set_dynamic_payloads_attr sim_get_dynamic_payloads_attr : simdb.
  Lemma sim_set_dynamic_payloads b p : sim me (set_dynamic_payloads W b p) (set_dynamic_payloads CB b p).
  Proof. unfold set_dynamic_payloads. go. Qed.
  Lemma sim_get_dynamic_payloads p : sim me (get_dynamic_payloads W p) (get_dynamic_payloads CB p).
  Proof. unfold get_dynamic_payloads. go. Qed.
  #[local] Hint Resolve sim_set_auto_ack : simdb.
  Lemma sim_set_ack b : sim me (set_ack W b) (set_ack CB b).
  Proof. unfold set_ack. go. Qed.
  Lemma sim_get_ack : sim me (get_ack W) (get_ack CB).
  Proof. unfold get_ack. go. Qed.
  Lemma sim_set_allow_ask_no_ack b : sim me (set_allow_ask_no_ack W b) (set_allow_ask_no_ack CB b).
  Proof. unfold set_allow_ask_no_ack. go. Qed.
  Lemma sim_get_allow_ask_no_ack : sim me (get_allow_ask_no_ack W) (get_allow_ask_no_ack CB).
  Proof. unfold get_allow_ask_no_ack. go. Qed.

  Lemma sim_pl_list_loop vals : forall i, sim me (pl_list_loop W vals i) (pl_list_loop CB vals i).
  Proof. induction vals as [|v t IH]; intros i; cbn [pl_list_loop]; go. Qed.
  #[local] Hint Resolve sim_pl_list_loop : simdb.

  Lemma sim_set_payload_length_attr v : sim me (set_payload_length_attr W v) (set_payload_length_attr CB v).
  Proof.
    unfold set_payload_length_attr. destruct v as [z|b|l| | |]; try go.
    generalize (@nil Z). induction l as [|x t IH]; intros acc; [go|].
    destruct x; try go; apply IH.
  Qed.
  #[local] Hint Resolve sim_set_payload_length_attr : simdb.

  Lemma sim_set_payload_length len p : sim me (set_payload_length W len p) (set_payload_length CB len p).
  Proof. unfold set_payload_length. go. Qed.
  Lemma sim_get_payload_length p : sim me (get_payload_length W p) (get_payload_length CB p).
  Proof.
    unfold get_payload_length. destruct ((0 <=? p) && (p <=? 5)) eqn:E; cbn [negb]; [|go].
    apply andb_true_iff in E. destruct E as [E1 E2]. apply Z.leb_le in E1, E2.
    assert (Hc : cfg_cmd (Z.to_N (17 + p)) = true).
    { apply (below_Z (fun p => cfg_cmd (Z.to_N (17 + p))) 6); [reflexivity|lia]. }
    go.
  Qed.

  Lemma sim_overlay_into a old : sim me (overlay_into a old) (overlay_into a old).
  Proof. unfold overlay_into. go. Qed.
  #[local] Hint Resolve sim_overlay_into : simdb.

  Lemma sim_open_tx_pipe a : sim me (open_tx_pipe W a) (open_tx_pipe CB a).
  Proof. unfold open_tx_pipe. go. Qed.

  Lemma sim_close_rx_pipe p : sim me (close_rx_pipe W p) (close_rx_pipe CB p).
  Proof. unfold close_rx_pipe. go. Qed.

  Lemma sim_open_rx_pipe p a : sim me (open_rx_pipe W p a) (open_rx_pipe CB p a).
  Proof. unfold open_rx_pipe. go. Qed.

  Lemma sim_set_listen b : sim me (set_listen W b) (set_listen CB b).
  Proof. unfold set_listen. go. Qed.

  #[local] Hint Resolve sim_set_payload_length : simdb.
  Lemma sim_enter_pl n : forall i, sim me (enter_pl W i n) (enter_pl CB i n).
  Proof. induction n as [|k IH]; intros i; cbn [enter_pl]; go. Qed.
  #[local] Hint Resolve sim_enter_pl : simdb.

  Lemma sim_enter : sim me (enter W) (enter CB).
  Proof. unfold enter. go. Qed.

  Lemma sim_exit : sim me (exit W) (exit CB).
  Proof. unfold exit. go. Qed.

  Lemma sim_clear_status_flags a b c : sim me (clear_status_flags W a b c) (clear_status_flags CB a b c).
  Proof. unfold clear_status_flags. go. Qed.

  #[local] Hint Resolve sim_enter sim_exit sim_clear_status_flags : simdb.
  Lemma sim_construct : sim me (construct W) (construct CB).
  Proof. unfold construct. go. Qed.

End Ops.
