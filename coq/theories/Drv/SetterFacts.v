(* SetterFacts.v -- documented encodings of configuration setters, proved at the configuration level; they hold
   on radio `me` of every world by the simulation lemmas (RF24SimOps.v) through RF24Sim.sim_run_ok / sim_run_exn
   (Props/C03.v).  Every setter, once it has accepted its argument, computes one byte, updates the object and writes
   the byte to one register (`store_c`); its lemma `set_X_c` says which register and which byte (the object after the
   call is not described).  That the value is a byte has
   a reason each time (bits under a mask or-ed with a few more, two nibbles); the byte's fields are read off in
   Props/C03.v by a sweep over the 256 previous contents (a bounded format). *)
From Coq Require Import ZArith NArith List Bool Lia ZifyN.
From NRF Require Import Base.Bits Env.Radio Env.CfgFacts Drv.RF24 Drv.RF24Sim Drv.CfgEval.
Local Open Scope Z_scope.

(* What every setter ends in, once its argument is accepted: the object is updated and the new byte written to a
   one-byte register, which keeps the bits its write mask has (r < 28: DYNPD and FEATURE take writes only once
   activated, CfgEval.cwrite_sbyte).  A setter that first reads the object (`get`) is this by computation, at the
   object it is run on. *)
Lemma store_c upd r v n d c : 0 <= r < 28 -> sbyte (Z.to_N r) = true -> 0 <= v < 2 ^ 8 ->
  N.land (Z.to_N v) (wmask (Z.to_N r)) = n ->
  exists d', bind (modify upd) (fun _ => reg_write CB r v) d c = (Ok tt, d', cset c (Z.to_N r) n).
Proof.
  intros Hr Hs Hv <-. eexists. unfold bind, modify. rewrite reg_write_c, cwrite_sbyte by (auto; lia). reflexivity.
Qed.

(* ... and a byte below 2^k in a register with k writable bits is stored as it is *)
Lemma store_fits_c upd r v k d c : 0 <= r < 28 -> sbyte (Z.to_N r) = true -> wmask (Z.to_N r) = N.ones k ->
  0 <= v < 2 ^ 8 -> v < Z.of_N (2 ^ k) ->
  exists d', bind (modify upd) (fun _ => reg_write CB r v) d c = (Ok tt, d', cset c (Z.to_N r) (Z.to_N v)).
Proof.
  intros Hr Hs Hm Hv Hk. apply store_c; auto. rewrite Hm, N.land_ones. apply N.mod_small. lia.
Qed.

(* the bytes the read-modify-write setters build: bits of x under a mask below 256, or-ed with a byte -- whatever x is *)
Lemma lor_land_byte x m b : 0 <= m < 2 ^ 8 -> 0 <= b < 2 ^ 8 -> 0 <= Z.lor (Z.land x m) b < 2 ^ 8.
Proof. intros Hm Hb. apply Z_lor_lt; [pose proof (Z_land_le x m); lia|exact Hb]. Qed.

(* channel = ch: ValueError outside 0..125 with nothing written; otherwise RF_CH := ch, nothing else *)
Lemma set_channel_c ch d c : 0 <= ch <= 125 ->
  exists d', set_channel CB ch d c = (Ok tt, d', cset c 5 (Z.to_N ch)).
Proof.
  intros Hc. unfold set_channel. destruct (negb _) eqn:E; [lia|].
  apply (store_fits_c _ 5 ch 7); (reflexivity || lia).
Qed.

Lemma set_channel_rejects ch d c : ~ (0 <= ch <= 125) -> set_channel CB ch d c = (Exn ValueError, d, c).
Proof.
  intro H. unfold set_channel. destruct (negb _) eqn:E; [reflexivity|lia].
Qed.

(* address_length = len, 3 <= len <= 5: SETUP_AW := len - 2, nothing else *)
Lemma set_address_length_c len d c : 3 <= len <= 5 ->
  exists d', set_address_length CB len d c = (Ok tt, d', cset c 3 (Z.to_N (len - 2))).
Proof.
  intro H. unfold set_address_length. destruct (_ && _) eqn:E; [|lia].
  apply (store_fits_c _ 3 _ 2); (reflexivity || lia).
Qed.

(* set_auto_retries(delay, count), ANY integers: SETUP_RETR := ((clamp(delay,250,4000)-250)/250) << 4 | clamp(count,0,15) *)
Definition retr_value (delay count : Z) : Z :=
  16 * ((Z.max 250 (Z.min delay 4000) - 250) / 250) + Z.max 0 (Z.min count 15).

Lemma set_auto_retries_c delay count d c :
  exists d', set_auto_retries CB delay count d c = (Ok tt, d', cset c 4 (Z.to_N (retr_value delay count))).
Proof.
  unfold set_auto_retries, ard_bits. rewrite lor_shiftl_add, Z.mul_comm by lia.
  apply (store_fits_c _ 4 _ 8); first [reflexivity | Z.div_mod_to_equations; lia].
Qed.

(* data_rate = 1 | 2 | 250: RF_SETUP bits 5 and 3 (RF_DR_LOW, RF_DR_HIGH) := 00 | 01 | 10, every other bit of
   the register (PA level, LNA, PLL_LOCK, CONT_WAVE) as it was; any other value: ValueError, nothing written *)
Definition rate_bits (speed : Z) : Z := if speed =? 1 then 0 else if speed =? 2 then 8 else 32.
Definition rate_value (n : N) (speed : Z) : N :=
  N.land (Z.to_N (Z.lor (Z.land (Z.of_N n) 215) (rate_bits speed))) 191.

Lemma set_data_rate_c speed d c : (speed = 1 \/ speed = 2 \/ speed = 250) ->
  exists d', set_data_rate CB speed d c = (Ok tt, d', cset c 6 (rate_value (creg c 6) speed)).
Proof.
  intros Hs. unfold set_data_rate. destruct (negb _) eqn:E; [lia|]. fold (rate_bits speed).
  mstep lia. change (Z.to_N 6) with 6%N. rewrite (cread_plain c 6) by reflexivity.
  apply store_c; try (reflexivity || lia).
  apply lor_land_byte; [lia|destruct Hs as [->|[->| ->]]; cbn; lia].
Qed.

Lemma set_data_rate_rejects speed d c : ~ (speed = 1 \/ speed = 2 \/ speed = 250) ->
  set_data_rate CB speed d c = (Exn ValueError, d, c).
Proof.
  intro H. unfold set_data_rate. destruct (negb _) eqn:E; [reflexivity|lia].
Qed.

(* crc = length (any integer, clamped to 0..2): CONFIG bits 3,2 (EN_CRC, CRCO) := 00 | 10 | 11, the other bits
   from the object's cached CONFIG (which mirrors the register: C09_enter / HInv) *)
Definition crc_bits (length : Z) : Z :=
  let l := Z.min 2 (Z.max 0 length) in if l =? 0 then 0 else Z.shiftl (l + 1) 2.
Definition crc_value (cfg0 length : Z) : N := N.land (Z.to_N (Z.lor (Z.land cfg0 115) (crc_bits length))) 127.

Lemma crc_bits_in length : crc_bits length = 0 \/ crc_bits length = 8 \/ crc_bits length = 12.
Proof.
  unfold crc_bits. remember (Z.min 2 (Z.max 0 length)) as l eqn:E.
  assert (H : l = 0 \/ l = 1 \/ l = 2) by lia. destruct H as [->|[->| ->]]; cbn; auto.
Qed.

Lemma set_crc_c length d c :
  exists d', set_crc CB length d c = (Ok tt, d', cset c 0 (crc_value (d_config d) length)).
Proof.
  unfold set_crc. fold (crc_bits length). mstep lia.
  apply store_c; try (reflexivity || lia).
  apply lor_land_byte; [lia|destruct (crc_bits_in length) as [->|[->| ->]]; lia].
Qed.

(* pa_level = power | (power, lna), power in {-18,-12,-6,0} dBm: RF_SETUP bits 2,1 (RF_PWR) := 00 | 01 | 10 | 11,
   bit 0 (LNA_HCURR) := lna (True when only the power is given), bits 7..3 (data rate, PLL_LOCK, CONT_WAVE) from the
   object's cached RF_SETUP byte; any other power: ValueError, nothing written *)
Definition pa_bits (p : Z) : Z := (3 - p / -6) * 2.
Definition pa_value (cached p : Z) (lna : bool) : N :=
  N.land (Z.to_N (Z.lor (Z.lor (Z.land cached 248) (pa_bits p)) (zb lna))) 191.
Definition pa_ok (p : Z) : Prop := p = -18 \/ p = -12 \/ p = -6 \/ p = 0.

(* the argument forms the setter accepts: an int, or a sequence starting (int power, bool-ish lna) *)
Definition pa_arg (power : pyval) (p : Z) (lna : bool) : Prop :=
  (power = PInt p /\ lna = true) \/ (exists rest, power = PList (PInt p :: PBool lna :: rest))
  \/ (exists l rest, power = PList (PInt p :: PInt l :: rest) /\ lna = truthy l).

Lemma pa_bits_in p : pa_ok p -> pa_bits p = 0 \/ pa_bits p = 2 \/ pa_bits p = 4 \/ pa_bits p = 6.
Proof. intros [->|[->|[->| ->]]]; cbv; auto. Qed.

Lemma set_pa_level_c power p lna d c : pa_arg power p lna -> pa_ok p ->
  exists d', set_pa_level CB power d c = (Ok tt, d', cset c 6 (pa_value (d_rf_setup d) p lna)).
Proof.
  intros Ha Hp.
  assert (Hr : 0 <= Z.lor (Z.lor (Z.land (d_rf_setup d) 248) (pa_bits p)) (zb lna) < 2 ^ 8).
  { apply Z_lor_lt; [apply lor_land_byte; [lia|destruct (pa_bits_in p Hp) as [->|[->|[->| ->]]]; lia]|destruct lna; cbn; lia]. }
  assert (Hv : negb (valid_pa p) = false) by (unfold valid_pa, pa_ok in *; lia).
  unfold set_pa_level. destruct Ha as [[-> ->]|[[rest ->]|(l & rest & -> & ->)]]; rewrite Hv;
    apply (store_c _ 6 _ _ d c); first [reflexivity | exact Hr | lia].
Qed.

Lemma set_pa_level_rejects power p lna d c : pa_arg power p lna -> ~ pa_ok p ->
  set_pa_level CB power d c = (Exn ValueError, d, c).
Proof.
  intros Ha Hp. assert (Hv : negb (valid_pa p) = true) by (unfold valid_pa, pa_ok in *; lia).
  unfold set_pa_level. destruct Ha as [[-> ->]|[[rest ->]|(l & rest & -> & ->)]]; rewrite Hv; reflexivity.
Qed.

(* arc = count (any integer, clamped to 0..15): SETUP_RETR low nibble := count, high nibble (ARD) from the cached
   byte;  ard = delta (any integer, clamped to 250..4000 us): high nibble := (delta - 250) / 250, low nibble (ARC) from the
   cached byte *)
Definition arc_value (cached count : Z) : Z := 16 * (cached / 16) + Z.max 0 (Z.min count 15).
Definition ard_value (cached delta : Z) : Z := 16 * ((Z.max 250 (Z.min delta 4000) - 250) / 250) + cached mod 16.

Lemma nibbles q k : 0 <= k < 16 -> (16 * q + k) / 16 = q /\ (16 * q + k) mod 16 = k.
Proof. intro H. split; symmetry; [apply (Z.div_unique _ 16 q k)|apply (Z.mod_unique _ 16 q k)]; auto. Qed.

(* keeping one nibble of a byte and setting the other *)
Lemma land_high_nibble v : Z.land v 240 = Z.shiftl (v / 16 mod 16) 4.
Proof.
  (* ((v >> 4) & 15) << 4 = ((v >> 4) << 4) & (15 << 4) = (v & ~15) & 240, and ~15 & 240 is 240 *)
  change 16 with (2 ^ 4).
  rewrite <- Z.shiftr_div_pow2, <- Z.land_ones, Z.shiftl_land, <- Z.ldiff_ones_r, Z.ldiff_land, <- Z.land_assoc by lia.
  reflexivity.
Qed.

Lemma lor_keep_high v c : 0 <= v < 256 -> 0 <= c < 16 -> Z.lor (Z.land v 240) c = 16 * (v / 16) + c.
Proof.
  intros Hv Hc. rewrite land_high_nibble, lor_shiftl_add by lia.
  rewrite (Z.mod_small (v / 16)) by (Z.div_mod_to_equations; lia). lia.
Qed.

Lemma lor_keep_low v q : Z.lor (Z.land v 15) (Z.shiftl q 4) = 16 * q + v mod 16.
Proof.
  change 15 with (Z.ones 4). rewrite Z.land_ones, Z.lor_comm by lia.
  rewrite lor_shiftl_add by (try apply Z.mod_pos_bound; lia). lia.
Qed.

Lemma set_arc_c count d c : 0 <= d_retry_setup d <= 255 ->
  exists d', set_arc CB count d c = (Ok tt, d', cset c 4 (Z.to_N (arc_value (d_retry_setup d) count))).
Proof.
  intros Hd. unfold set_arc.
  mstep lia. rewrite lor_keep_high by lia.
  apply (store_fits_c _ 4 _ 8); first [reflexivity | Z.div_mod_to_equations; lia].
Qed.

Lemma set_ard_c delta d c :
  exists d', set_ard CB delta d c = (Ok tt, d', cset c 4 (Z.to_N (ard_value (d_retry_setup d) delta))).
Proof.
  unfold set_ard, ard_bits.
  mstep lia. rewrite lor_keep_low.
  apply (store_fits_c _ 4 _ 8); first [reflexivity | Z.div_mod_to_equations; lia].
Qed.
