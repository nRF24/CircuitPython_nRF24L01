(* AccessFacts.v -- the status/FIFO accessors of the driver model (Drv/RF24.v) report the state of the
   radio they talk to: what one SPI transfer returns is a function of the radio as it was before the
   transfer (WorldFacts.w_spi_reply), and STATUS decodes to the pipe of the next payload, TX_FULL and the latched
   interrupt flags.  The accessors themselves are run in Props/C10.v (FIFO_STATUS is decoded there). *)
From Coq Require Import ZArith List Bool Lia.
From NRF Require Import Base.Sweep Env.Radio Env.World Env.RadioFacts Env.WorldFacts Env.WfFacts Drv.RF24.
Import ListNotations.
Local Open Scope N_scope.

(* RX_P_NO: 7 when the RX FIFO is empty, else the pipe, below 6, of its first payload *)
Lemma rx_p_no_cases r : WfR r ->
  match rx_fifo r with [] => rx_p_no r = 7 | (p, _) :: _ => rx_p_no r = p /\ p < 6 end.
Proof.
  intros (_ & H). unfold rx_p_no. destruct H as [|[p x] t Hp _]; [reflexivity|]. split; [reflexivity|exact Hp].
Qed.

(* STATUS decodes: RX_P_NO field, TX_FULL bit, the three flags.  A bounded format: the fields do not overlap
   because the flags have no bit below 4, checked on all 128 x 8 x 2 contents. *)
Lemma status_decode r : WfR r ->
  N.land (N.shiftr (status r) 1) 7 = rx_p_no r /\
  N.land (status r) 1 = (if tx_full r then 1 else 0) /\
  N.land (status r) 112 = flags r /\
  negb (N.land (status r) 64 =? 0) = N.testbit (flags r) 6 /\
  negb (N.land (status r) 32 =? 0) = N.testbit (flags r) 5 /\
  negb (N.land (status r) 16 =? 0) = N.testbit (flags r) 4 /\
  negb (N.land (status r) 1 =? 0) = tx_full r.
Proof.
  intro W. assert (Hp : rx_p_no r < 8) by (pose proof (rx_p_no_cases r W); destruct (rx_fifo r) as [|[]]; lia).
  destruct W as ((Hf & Hl) & _).
  revert Hl. rewrite <- !N.eqb_eq, <- !(Bool.eqb_true_iff (negb _)), <- !andb_true_iff, <- implb_true_iff.
  unfold status.
  generalize (flags r) Hf. apply (below_N _ 128). generalize (rx_p_no r) Hp. apply (below_N _ 8).
  destruct (tx_full r); vm_compute; reflexivity.
Qed.

(* the test of available(): the pipe field is below 6 exactly when the RX FIFO holds a payload *)
Lemma status_pipe_lt6 r : WfR r ->
  (N.land (N.shiftr (status r) 1) 7 <? 6) = negb (match rx_fifo r with [] => true | _ => false end).
Proof.
  intro W. rewrite (proj1 (status_decode r W)). pose proof (rx_p_no_cases r W) as H.
  destruct (rx_fifo r) as [|[p x] t]; [rewrite H; reflexivity|apply N.ltb_lt; lia].
Qed.

Lemma status_flags r m : WfR r -> N.land 112 m = m -> N.land (status r) m = N.land (flags r) m.
Proof.
  intros Wf Hm. destruct (status_decode r Wf) as (_ & _ & D & _). rewrite <- D, <- N.land_assoc, Hm. reflexivity.
Qed.

Section OnRadio.
  Variable me : nat.

  (* one transfer on the world's bus: the reply is the radio's, as it was, and its first byte is cached *)
  Lemma xfer_w mosi d w :
    exists d' w', xfer (WB me) mosi d w = (Ok (snd (spi (get_radio w me) mosi)), d', w')
                  /\ d_in0 d' = hd 0 (snd (spi (get_radio w me) mosi)).
  Proof.
    unfold xfer. cbn [b_spi WB]. rewrite <- w_spi_reply. destruct (w_spi w me mosi).
    eexists. eexists. split; reflexivity.
  Qed.

  (* update(): the cached STATUS is the radio's STATUS as it was when the call was made *)
  Lemma update_spec d w :
    exists d' w', update (WB me) d w = (Ok true, d', w') /\ d_in0 d' = status (get_radio w me).
  Proof.
    destruct (xfer_w [255] d w) as (d' & w' & E & S). exists d', w'.
    unfold update, command, bind. change (as_byte 255 d w) with (Ok 255, d, w). cbv iota. rewrite E.
    split; [reflexivity|]. rewrite S. apply spi_status_first.
  Qed.

  (* what fifo(about_tx) returns for a FIFO holding n entries: 2 when full (3 entries) + 1 when empty (C10_fifo) *)
  Definition occ (n : nat) : Z := (if 3 <=? N.of_nat n then 2 else 0) + (match n with O => 1 | _ => 0 end).
End OnRadio.
