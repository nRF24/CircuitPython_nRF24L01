(* RecvFacts.v -- read() on the receiving side returns the payload at the head of the radio's RX FIFO and removes
   it (C01, receiver side), for a receiver in a world where no other radio can transmit while it reads. *)
From Coq Require Import ZArith NArith List Bool Lia.
From NRF Require Import Base.Lists Env.Radio Env.WfFacts Env.QuietFacts Drv.RF24 Drv.RF24Sim Drv.AccessFacts Drv.SendFacts.
Import ListNotations.
Local Open Scope N_scope.

Lemma pad_exact (l : list N) : pad (length l) l = l.
Proof. apply firstn_app_exact. Qed.

Section OnRadio.
  Variable me : nat.
  Notation W := (WB me).

  (* read() on a radio that is not an active transmitter, with a payload (p, data) of 1..32 bytes at the head of
     the RX FIFO -- its length known to the driver either through dynamic payloads (R_RX_PL_WID) or through the
     cached static length of pipe p: three transfers (R_RX_PL_WID, R_RX_PAYLOAD, W_REGISTER STATUS), the result is
     `data`, the entry has left the FIFO and RX_DR is cleared *)
  Lemma runs_read d r p data rest :
    WfR r -> active r = false -> rx_fifo r = (p, data) :: rest -> (1 <= length data <= 32)%nat ->
    (truthy (Z.land (d_features d) 4) = true \/ pl_len_at d (N.to_nat p) = Z.of_nat (length data)) ->
    let r2 := with_fifos r rest (tx_fifo r) in
    runs me (read W None) d r (Some data) (upd_in0 (status r2) d) (with_flags r2 (N.land (flags r2) 48)).
  Proof.
    intros Wf Hi Hrx Hlen Hmode r2. unfold read.
    (* any(): the length, and the pipe number in the STATUS byte of that transfer *)
    refine (runs_bind me (runs_bind me (runs_xfer me 96 [0] (fun miso => Z.of_N (nth 1 miso 0))
                                          (miso := [status r; N.of_nat (length data)]) _ (can_tx_idle r Hi))
                                       (b := Z.of_nat (length data)) (runs_pure me r _)) _).
    - unfold spi. rewrite Hrx. reflexivity.
    - intro w'. cbn [bind get nth]. unfold st_pipe, pl_len_at in *. cbn [d_in0 d_features d_pl_len upd_in0].
      rewrite (status_pipe_lt6 r Wf), (proj1 (status_decode r Wf)). unfold rx_p_no. rewrite Hrx, nat_N_Z.
      destruct Hmode as [-> | ->]; [|destruct (truthy _)]; reflexivity.
    - replace (Z.of_nat (length data) =? 0)%Z with false by lia.
      replace ((0 <? Z.of_nat (length data))%Z && (Z.of_nat (length data) <=? 96)%Z) with true by lia.
      rewrite Nat2Z.id.
      refine (runs_bind me (runs_xfer me 97 _ (@tl N) (miso := status r :: data) _ (can_tx_idle r2 Hi)) _).
      + unfold spi. rewrite Hrx, repeat_length, pad_exact. reflexivity.
      + apply (runs_bind me (runs_clear_flags me true false false _ (r := r2) Hi)), runs_ret.
  Qed.
End OnRadio.
