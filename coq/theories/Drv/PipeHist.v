(* PipeHist.v -- property C08, call by call and over HISTORIES.  HInv (the object's cached view of CONFIG / EN_AA /
   EN_RXADDR / RX_ADDR_P0 / TX_ADDR equals the radio, no reserved bits, a remembered pipe-0 reading address means
   pipe 0 is enabled) is preserved by every call of the property's alphabet, each of which satisfies its clause; so
   the statements hold after ANY sequence of such calls, by induction on the sequence.  `listen` and `open_tx_pipe`
   are stepped through once: their clauses need only PInv, the preservation needs HInv.  __enter__ establishes HInv. *)
From Coq Require Import ZArith NArith Arith List Bool Lia.
From NRF Require Import Base.Bits Env.Radio Env.World Env.WorldFacts Env.CfgFacts Drv.RF24 Drv.RF24Sim
     Drv.RF24SimOps Drv.CfgEval Drv.CtxFacts Drv.PipeFacts.
Import ListNotations.
Local Open Scope Z_scope.

(* PInv plus: the three registers the pipe-0 logic rewrites from cached copies hold no reserved bits *)
Definition HInv (d : drv) (c : cfg) : Prop :=
  PInv d c /\ (creg c 0 < 128)%N /\ (creg c 1 < 64)%N /\ (creg c 2 < 64)%N.

(* the object's own state between blocks: no reserved bits in the three cached registers, and a remembered pipe-0
   reading address is complete and goes with an open pipe 0 *)
Definition DGood (d : drv) : Prop :=
  d_config d < 128 /\ d_aa d < 64 /\ d_open_pipes d < 64
  /\ (forall img, d_pipe0_read_addr d = Some img -> length img = 5%nat /\ Z.testbit (d_open_pipes d) 0 = true).

(* HInv taken apart: the object is good on its own, and its copies of the five registers the pipe-0 logic
   works from are those of the radio *)
Definition Synced (d : drv) (c : cfg) : Prop :=
  d_pipe0 d = c_p0 c /\ d_tx_address d = c_tx c
  /\ creg c 2 = Z.to_N (d_open_pipes d) /\ creg c 1 = Z.to_N (d_aa d) /\ creg c 0 = Z.to_N (d_config d).

Lemma HInv_iff d c : HInv d c <-> WfC c /\ DrvOk d /\ DGood d /\ Synced d c.
Proof.
  unfold HInv, PInv, DGood, Synced. split.
  - intros [(Hw&Hd&Hp0&Htx&Hop&Haa&Hcf&Hrd) (B0&B1&B2)].
    rewrite <- Hop, <- Haa, <- Hcf, !N2Z.id. split; [exact Hw|]. split; [exact Hd|].
    split; [|auto]. split; [lia|]. split; [lia|]. split; [lia|].
    intros img Hi. destruct (Hrd img Hi) as [L B]. split; [exact L|].
    rewrite <- B. exact (N2Z.inj_testbit _ 0).
  - intros (Hw&Hd&(G0&G1&G2&G3)&Hp0&Htx&E2&E1&E0).
    pose proof Hd as (D1&_&D3&_&D5&_). unfold byte_z in *.
    rewrite E2, E1, E0, !Z2N.id by lia. split; [|lia].
    split; [exact Hw|]. split; [exact Hd|]. do 5 (split; [auto|]).
    intros img Hi. destruct (G3 img Hi) as [L B]. split; [exact L|].
    rewrite testbit_to_N by lia. exact B.
Qed.

(* H : HInv d c; the goal HInv d' c', for d' and c' built from d and c by field updates and register writes, is
   split into its parts; what the updates did not touch is discharged from the parts of H, and so is a register
   written with a value whose byte and bound facts are at hand.  The parts of H stay in the context under fixed names
   for what is left: Hw (WfC), Hd and D1..D15 (DrvOk), G0..G3 (DGood), Hp0 Htx E2 E1 E0 (Synced); where the goal has a
   remembered address img, Li and Bi are its two facts from G3. *)
Ltac hinv H :=
  apply (proj1 (HInv_iff _ _)) in H; destruct H as (Hw&Hd&(G0&G1&G2&G3)&Hp0&Htx&E2&E1&E0);
  pose proof Hd as (D1&D2&D3&D4&D5&D6&D7&D8&D9&D10&D11&D12&D13&D14&D15);
  apply HInv_iff;
  split; [wfc
  |split; [apply DrvOk_intro; dsimp
  |split; [unfold DGood; dsimp; split; [|split; [|split]]
          |unfold Synced; dsimp; split; [|split; [|split; [|split]]]; obs]]];
  try assumption; try reflexivity; try (intros; congruence);
  try (intros img Hi; destruct (G3 img Hi) as [Li Bi]; split; [exact Li|]); auto;
  try (first [apply creg_write0 | apply creg_write1 | apply creg_write2]; [wfc | side0 | side0]).

Lemma RegsByte_cset c a v : RegsByte c -> (v < 256)%N -> RegsByte (cset c a v).
Proof.
  intros H Hv b. destruct (N.eq_dec a b) as [<-|Hn].
  - unfold creg, cset. cbn [c_sregs].
    destruct (Nat.ltb (N.to_nat a) (length (c_sregs c))) eqn:E.
    + apply Nat.ltb_lt in E. rewrite nth_set_nth_same by exact E. exact Hv.
    + apply Nat.ltb_ge in E. rewrite nth_overflow; [lia|]. rewrite set_nth_length. exact E.
  - rewrite creg_cset_other by exact Hn. apply H.
Qed.

Lemma land_small v m : (v < 2 ^ m)%N -> N.land v (N.ones m) = v.
Proof. intros H. rewrite N.land_ones. apply N.mod_small. exact H. Qed.

Lemma hinv_regs d c : HInv d c ->
  d_config d = Z.of_N (creg c 0) /\ d_aa d = Z.of_N (creg c 1) /\ d_open_pipes d = Z.of_N (creg c 2).
Proof. intros ((_&_&_&_&Hop&Haa&Hcf&_)&_). auto. Qed.

Lemma HInv_op d c : HInv d c ->
  0 <= d_open_pipes d <= 255
  /\ forall d1 c1, creg c1 2 = creg c 2 -> reg_read CB 2 d1 c1 = (Ok (d_open_pipes d), upd_in0 0 d1, c1).
Proof.
  intro H. apply HInv_iff in H. destruct H as (_&(_&_&D3&_)&_&_&_&E2&_). unfold byte_z in D3.
  split; [exact D3|]. intros d1 c1 E. rewrite reg_read_c by lia. change (Z.to_N 2) with 2%N.
  rewrite (cread_plain c1 2) by reflexivity. cbn [hd]. rewrite E, E2, Z2N.id by lia. reflexivity.
Qed.

Inductive pop :=
| OpOpenRx (p : Z) (a : list N)   (* open_rx_pipe(p, a) *)
| OpCloseRx (p : Z)               (* close_rx_pipe(p) *)
| OpOpenTx (a : list N)           (* open_tx_pipe(a) *)
| OpListen (b : bool)             (* listen = b *)
| OpAutoAck (b : bool).           (* auto_ack = b *)

(* calls the driver accepts: pipes 0..5, 1..5 address bytes (for pipes 1..5 the first one has to be a byte; for
   pipes 2..5 only it is used) *)
Definition pop_ok (o : pop) : Prop :=
  match o with
  | OpOpenRx p a => 0 <= p <= 5 /\ (1 <= length a <= 5)%nat /\ (p = 0 \/ (hd 0%N a < 256)%N)
  | OpCloseRx p => 0 <= p <= 5
  | OpOpenTx a => (1 <= length a <= 5)%nat
  | _ => True
  end.

Definition run_pop {bus} (B : busops bus) (o : pop) : M unit :=
  match o with
  | OpOpenRx p a => open_rx_pipe B p a
  | OpCloseRx p => close_rx_pipe B p
  | OpOpenTx a => open_tx_pipe B a
  | OpListen b => set_listen B b
  | OpAutoAck b => set_auto_ack_attr B (PBool b)
  end.

(* ghost state, independent of the driver: the complete register image of RX_ADDR_P0 right after the user's last
   open_rx_pipe(0, a); None if the user never opened pipe 0 or has closed it *)
Definition ghost (o : pop) (g : option (list N)) (c : cfg) : option (list N) :=
  match o with
  | OpOpenRx p a => if p =? 0 then Some (overlay a (c_p0 c)) else g
  | OpCloseRx p => if p =? 0 then None else g
  | _ => g
  end.

(* what C08 demands of one call (c: radio configuration before, c': after) *)
Definition post (o : pop) (g : option (list N)) (c c' : cfg) : Prop :=
  match o with
  | OpListen true =>
      c_ce c' = true /\ N.land (creg c' 0) 3 = 3%N
      /\ match g with
         | Some img => c_p0 c' = img /\ N.testbit (creg c' 2) 0 = true
         | None => N.testbit (creg c' 2) 0 = false
         end
      /\ c_tx c' = c_tx c
  | OpListen false => c_ce c' = false /\ N.land (creg c' 0) 3 = 2%N /\ c_tx c' = c_tx c
  | OpOpenTx a =>
      firstn (length a) (c_tx c') = a /\ c_tx c' = overlay a (c_tx c) /\ c_ce c' = c_ce c
      /\ (N.testbit (creg c 1) 0 = true ->
            c_p0 c' = c_tx c' /\ (N.testbit (creg c 0) 0 = false -> N.testbit (creg c' 2) 0 = true))
  | OpOpenRx p a =>
      c_ce c' = c_ce c /\ c_tx c' = c_tx c /\ c_p0 c' = (if p =? 0 then overlay a (c_p0 c) else c_p0 c)
  | _ => c_ce c' = c_ce c /\ c_tx c' = c_tx c /\ c_p0 c' = c_p0 c
  end.

Lemma close_inv d c p : HInv d c -> 0 <= p <= 5 ->
  exists d' c', close_rx_pipe CB p d c = (Ok tt, d', c')
    /\ HInv d' c' /\ d_pipe0_read_addr d' = (if p =? 0 then None else d_pipe0_read_addr d)
    /\ c_ce c' = c_ce c /\ c_p0 c' = c_p0 c /\ c_tx c' = c_tx c.
Proof.
  intros H Hp. destruct (HInv_op d c H) as [B2 R2].
  destruct (land_facts (d_open_pipes d) (Z.lnot (Z.shiftl 1 p)) B2) as (Bv&Gv&Hb).
  rewrite Z.lnot_spec, shiftl1_bit0 in Hb by lia.
  unfold close_rx_pipe. replace ((p <? 0) || (5 <? p)) with false by lia.
  erewrite bind_ok by (apply R2; reflexivity). mstep side0.
  destruct (p =? 0); mstep side0; rewrite reg_write_c by side0; (eexists _, _; split; [reflexivity|]);
    obs; (split; [|auto]); hinv H.
  rewrite Hb, Bi. reflexivity.
Qed.

Lemma close0_inv d c : HInv d c ->
  exists d' c', close_rx_pipe CB 0 d c = (Ok tt, d', c')
    /\ HInv d' c' /\ d_pipe0_read_addr d' = None
    /\ c_ce c' = c_ce c /\ c_p0 c' = c_p0 c /\ c_tx c' = c_tx c.
Proof. intro H. exact (close_inv d c 0 H ltac:(lia)). Qed.

Lemma closeN_inv d c p : HInv d c -> 1 <= p <= 5 ->
  exists d' c', close_rx_pipe CB p d c = (Ok tt, d', c')
    /\ HInv d' c' /\ d_pipe0_read_addr d' = d_pipe0_read_addr d
    /\ c_ce c' = c_ce c /\ c_p0 c' = c_p0 c /\ c_tx c' = c_tx c.
Proof.
  intros H Hp. pose proof (close_inv d c p H ltac:(lia)) as C.
  replace (p =? 0) with false in C by lia. exact C.
Qed.

Lemma autoack_inv d c b : HInv d c ->
  exists d' c', set_auto_ack_attr CB (PBool b) d c = (Ok tt, d', c')
    /\ HInv d' c' /\ d_pipe0_read_addr d' = d_pipe0_read_addr d
    /\ c_ce c' = c_ce c /\ c_p0 c' = c_p0 c /\ c_tx c' = c_tx c
    /\ creg c' 0 = creg c 0 /\ creg c' 2 = creg c 2.
Proof.
  intros H. set (v := if b then 63 else 0). assert (Hv : 0 <= v < 64) by (unfold v; destruct b; lia).
  assert (Bv : byte_z v) by (unfold byte_z; lia). assert (Gv : v < 64) by lia.
  unfold set_auto_ack_attr. do 2 mstep side0. dsimp. fold v. rewrite reg_write_c by side0.
  eexists _, _. split; [reflexivity|]. obs. split; [|auto 7].
  hinv H.
Qed.

Lemma openrx0_inv d c a : HInv d c -> (1 <= length a <= 5)%nat ->
  exists d' c', open_rx_pipe CB 0 a d c = (Ok tt, d', c')
    /\ HInv d' c' /\ d_pipe0_read_addr d' = Some (c_p0 c')
    /\ c_p0 c' = overlay a (c_p0 c) /\ firstn (length a) (c_p0 c') = a
    /\ c_ce c' = c_ce c /\ c_tx c' = c_tx c /\ creg c' 0 = creg c 0 /\ creg c' 1 = creg c 1.
Proof.
  intros H Hl. destruct (HInv_op d c H) as [B2 R2].
  pose proof H as (((_&W2&_)&(_&_&_&_&_&_&_&_&_&_&L0&_)&P0&_)&_).
  destruct (lor_facts (d_open_pipes d) (Z.shiftl 1 0) B2) as (Bv&Gv&Hb); [apply shiftl1_lt64; lia|].
  rewrite shiftl1_bit0, orb_true_r in Hb by lia.
  destruct a as [|a0 at_]; [cbn in Hl; lia|].
  unfold open_rx_pipe. change (negb ((0 <=? 0) && (0 <=? 5))) with false.
  change (0 <? 2) with true. change (0 =? 0) with true. cbv iota.
  mstep side0. rewrite !bind_assoc. erewrite bind_ok by (apply overlay_into_ok; lia).
  do 3 mstep side0. erewrite bind_ok by (apply R2, creg_cwrite_other; discriminate).
  mstep side0. rewrite reg_write_c by side0. eexists _, _. split; [reflexivity|].
  change (Z.to_N (10 + 0)) with 10%N. obs. rewrite P0.
  destruct (overlay_prefix (a0 :: at_) (c_p0 c) ltac:(lia)) as [_ Ov]. split; [|auto 8].
  hinv H; try (rewrite overlay_length; assumption).
  intros img Hi. injection Hi as <-. rewrite overlay_length. auto.
Qed.

Lemma openrxN_inv d c p a : HInv d c -> 1 <= p <= 5 -> (1 <= length a <= 5)%nat -> (hd 0%N a < 256)%N ->
  exists d' c', open_rx_pipe CB p a d c = (Ok tt, d', c')
    /\ HInv d' c' /\ d_pipe0_read_addr d' = d_pipe0_read_addr d
    /\ c_ce c' = c_ce c /\ c_p0 c' = c_p0 c /\ c_tx c' = c_tx c.
Proof.
  intros H Hp Hl Ha. destruct (HInv_op d c H) as [B2 R2].
  pose proof H as ((_&(_&_&_&_&_&_&_&_&_&_&_&L1&_&L25&F25)&_)&_).
  destruct (lor_facts (d_open_pipes d) (Z.shiftl 1 p) B2) as (Bv&Gv&Hb); [apply shiftl1_lt64; lia|].
  rewrite shiftl1_bit0 in Hb by lia. set (v := Z.lor _ _) in *.
  assert (Tv : Z.testbit (d_open_pipes d) 0 = true -> Z.testbit v 0 = true) by (rewrite Hb; intros ->; reflexivity).
  destruct a as [|a0 at_]; [cbn in Hl; lia|]. cbn [hd] in Ha.
  unfold open_rx_pipe. replace (negb ((0 <=? p) && (p <=? 5))) with false by lia.
  destruct (p <? 2) eqn:Ep2.
  - assert (p = 1) by lia. subst p. mstep side0. change (1 =? 0) with false. rewrite !bind_assoc.
    erewrite bind_ok by (apply overlay_into_ok; lia). do 2 mstep side0.
    erewrite bind_ok by (apply R2, creg_cwrite_other; discriminate).
    mstep side0. rewrite reg_write_c by side0. eexists _, _. split; [reflexivity|].
    change (Z.to_N (10 + 1)) with 11%N. obs. split; [|auto].
    hinv H; try (rewrite overlay_length; assumption).
  - do 3 mstep lia.
    erewrite bind_ok by (apply R2, creg_cwrite_other; lia).
    mstep side0. rewrite reg_write_c by side0. eexists _, _. split; [reflexivity|].
    (* the pipe's own register: one of RX_ADDR_P2..P5, none of those HInv speaks of *)
    set (ra := Z.to_N (10 + p)). assert (Hra : (ra <> 0 /\ ra <> 1 /\ ra <> 2 /\ ra <> 10 /\ ra <> 16)%N) by lia.
    clearbody ra. destruct Hra as (?&?&?&?&?). obs. split; [|auto]. hinv H.
    all: try (etransitivity; [apply (set_nth_z_length (d_pipes25 d)); lia|exact D14]).
    all: try (apply (Forall_set_nth_z byte_z (d_pipes25 d)); [assumption|unfold byte_z; lia]).
Qed.

(* every branch of the two long calls ends the same way: the run, the observations of the final configuration
   c1-with-more-writes, the invariant; what is left are the clauses that are not immediate *)
Ltac leaf c1 := eexists _, _; (split; [reflexivity|]); unfold c1 in *; dsimp;
  repeat match goal with |- _ /\ _ => split end; obs; try reflexivity; try assumption; try discriminate;
  try (let H := fresh "H" in intro H; hinv H).

Lemma listen_step d c b : PInv d c ->
  exists d' c', set_listen CB b d c = (Ok tt, d', c')
    /\ post (OpListen b) (d_pipe0_read_addr d) c c'
    /\ d_pipe0_read_addr d' = d_pipe0_read_addr d /\ creg c' 1 = creg c 1
    /\ (b = false -> c_p0 c' = c_p0 c
                     /\ (N.testbit (creg c 1) 0 = true -> N.testbit (creg c' 2) 0 = true))
    /\ (HInv d c -> HInv d' c').
Proof.
  intro X. destruct (PInv_bit0 d c X) as (Hop&Haa&_). destruct X as (Xw&Xd&Xp0&Xtx&Xop&Xaa&Xcf&Xrd).
  pose proof Xd as (Y1&_&Y3&_&Y5&_&_&_&_&_&L0&_). unfold byte_z in *.
  set (cv := Z.lor (Z.land (d_config d) 252) (2 + zb b)).
  destruct (role_cfg_facts (d_config d) b Y1) as [Bcv Gcv]. fold cv in Bcv, Gcv.
  assert (Hrole : N.land (creg (cwrite (cset_ce c false) (Z.to_N 0) [Z.to_N cv]) 0) 3 = (if b then 3 else 2)%N).
  { rewrite creg_cwrite_same by (first [reflexivity|exact Xw]). apply role_bits. }
  unfold set_listen. do 5 mstep side0. fold cv. cbn [b_ce b_now CB fst snd].
  set (c1 := cwrite (cset_ce c false) (Z.to_N 0) [Z.to_N cv]) in *.
  destruct b; cbn [post].
  - do 2 mstep side0. dsimp.
    destruct (d_pipe0_read_addr d) as [img|] eqn:Er.
    + destruct (Xrd img eq_refl) as [Li Bi].
      destruct (set_p0_c (negb (bytes_eqb img (d_pipe0 d))) img (upd_in0 0 (upd_config cv d)) (cset_ce c1 true)) as [x Ex];
        [exact Xp0|dsimp; congruence|intro E; apply negb_false_iff, list_eqb_eq in E; exact E|].
      erewrite bind_ok by exact Ex. rewrite listen_delay_c. leaf c1.
      * apply overlay_full; congruence.
      * symmetry. apply overlay_full; congruence.
    + rewrite truthy_land1, Hop. destruct (N.testbit (creg c 2) 0) eqn:Eo.
      * destruct (land_facts (d_open_pipes d) 62 Y3) as (Bv&Gv&Hb).
        do 2 mstep side0. rewrite listen_delay_c. leaf c1.
        -- rewrite creg_write2_bit0 by (wfc || side0). rewrite Hb. apply andb_false_r.
      * mstep side0. rewrite listen_delay_c. leaf c1.
  - mstep side0. dsimp.
    (* flush_tx, if it runs, only refreshes the cached status byte *)
    set (fl := if _ && _ then flush_tx CB else ret tt).
    assert (Hfl : forall dd cc, exists x, fl dd cc = (Ok tt, upd_in0 x dd, cc)).
    { intros dd cc. unfold fl. destruct (_ && _); [|exists (d_in0 dd); destruct dd; reflexivity].
      exists 0%N. unfold flush_tx. apply command_c; [side0|discriminate]. }
    rewrite !bind_assoc. destruct (Hfl (upd_in0 0 (upd_config cv d)) c1) as [x Ex].
    erewrite bind_ok by exact Ex. mstep side0. dsimp. rewrite !truthy_land1, Haa, Hop.
    destruct (N.testbit (creg c 1) 0 && negb (N.testbit (creg c 2) 0)) eqn:Et.
    + destruct (lor_facts (d_open_pipes d) 1 Y3) as (Bv&Gv&Tv); [side0|]. rewrite orb_true_r in Tv.
      do 2 mstep side0. rewrite listen_delay_c. leaf c1.
      * intros _. split; [reflexivity|]. intros _.
        rewrite creg_write2_bit0 by (wfc || side0). exact Tv.
    + mstep side0. rewrite listen_delay_c. leaf c1.
      * intros _. split; [reflexivity|]. intro Ea. rewrite Ea in Et.
        destruct (N.testbit (creg c 2) 0); [reflexivity|discriminate Et].
Qed.

Lemma listen_inv d c b : HInv d c ->
  exists d' c', set_listen CB b d c = (Ok tt, d', c')
    /\ HInv d' c' /\ d_pipe0_read_addr d' = d_pipe0_read_addr d
    /\ c_ce c' = b /\ N.land (creg c' 0) 3 = (if b then 3 else 2)%N
    /\ c_tx c' = c_tx c /\ creg c' 1 = creg c 1
    /\ (b = true -> match d_pipe0_read_addr d with
                    | Some img => c_p0 c' = img /\ N.testbit (creg c' 2) 0 = true
                    | None => N.testbit (creg c' 2) 0 = false
                    end)
    /\ (b = false -> c_p0 c' = c_p0 c
                     /\ (N.testbit (creg c 1) 0 = true -> N.testbit (creg c' 2) 0 = true)).
Proof.
  intro H. destruct (listen_step d c b (proj1 H)) as (d'&c'&E&P&A1&A6&A8&A9).
  exists d', c'. destruct b; cbn [post] in P; intuition discriminate.
Qed.

Lemma opentx_step d c a : PInv d c -> (1 <= length a <= 5)%nat ->
  exists d' c', open_tx_pipe CB a d c = (Ok tt, d', c')
    /\ post (OpOpenTx a) (d_pipe0_read_addr d) c c'
    /\ d_pipe0_read_addr d' = d_pipe0_read_addr d /\ creg c' 0 = creg c 0 /\ creg c' 1 = creg c 1
    /\ (N.testbit (creg c 1) 0 = false -> c_p0 c' = c_p0 c /\ creg c' 2 = creg c 2)
    /\ (HInv d c -> HInv d' c').
Proof.
  intros X Hl. destruct (PInv_bit0 d c X) as (Hop&Haa&Hcf). destruct X as (Xw&Xd&Xp0&Xtx&Xop&Xaa&Xcf&Xrd). cbn [post].
  pose proof Xw as (_&W0&_&Wt&_). pose proof Xd as (Y1&_&Y3&_&Y5&_&_&_&_&_&L0&_&Lt&_). unfold byte_z in *.
  destruct (overlay_prefix a (c_tx c)) as [_ Ov]; [rewrite Wt; apply Hl|].
  set (tx' := overlay a (c_tx c)) in *.
  assert (Ltx : length tx' = 5%nat) by (unfold tx'; rewrite overlay_length; exact Wt).
  assert (Ovf : overlay tx' (c_p0 c) = tx') by (apply overlay_full; rewrite W0; exact Ltx).
  destruct (lor_facts (d_open_pipes d) 1 Y3) as (Bv&Gv&Tv); [side0|]. rewrite orb_true_r in Tv.
  unfold open_tx_pipe. mstep side0. erewrite bind_ok by (apply overlay_into_ok; rewrite Lt; apply Hl).
  do 3 mstep side0. dsimp. rewrite Xtx. fold tx'. rewrite ?truthy_land1, ?Haa, ?Hcf, ?Hop.
  set (c1 := cwrite c (Z.to_N 16) a).
  destruct (N.testbit (creg c 1) 0) eqn:Ea.
  - rewrite andb_true_r.
    destruct (set_p0_c (negb (bytes_eqb (d_pipe0 d) tx')) tx' (upd_in0 0 (upd_tx_address tx' d)) c1) as [x Ex];
      [unfold c1; obs; exact Xp0|dsimp; congruence|intro E; apply negb_false_iff, list_eqb_eq in E; symmetry; exact E|].
    erewrite bind_ok by exact Ex. mstep side0. dsimp. rewrite ?truthy_land1, ?Haa, ?Hcf, ?Hop. cbn [andb].
    destruct (negb (N.testbit (creg c 0) 0) && negb (N.testbit (creg c 2) 0)) eqn:Et.
    + mstep side0. rewrite reg_write_c by side0. leaf c1.
      * intros _. split; [exact Ovf|]. intros _. rewrite creg_write2_bit0 by (wfc || side0). exact Tv.
    + leaf c1.
      * intros _. split; [exact Ovf|]. intro Ec. rewrite Ec in Et.
        destruct (N.testbit (creg c 2) 0); [reflexivity|discriminate Et].
  - rewrite andb_false_r. do 2 mstep side0. dsimp. rewrite ?truthy_land1, ?Haa. cbn [andb]. leaf c1.
    + intros _. auto.
Qed.

Lemma opentx_inv d c a : HInv d c -> (1 <= length a <= 5)%nat ->
  exists d' c', open_tx_pipe CB a d c = (Ok tt, d', c')
    /\ HInv d' c' /\ d_pipe0_read_addr d' = d_pipe0_read_addr d
    /\ c_tx c' = overlay a (c_tx c) /\ firstn (length a) (c_tx c') = a
    /\ c_ce c' = c_ce c /\ creg c' 0 = creg c 0 /\ creg c' 1 = creg c 1
    /\ (N.testbit (creg c 1) 0 = true ->
          c_p0 c' = c_tx c' /\ (N.testbit (creg c 0) 0 = false -> N.testbit (creg c' 2) 0 = true))
    /\ (N.testbit (creg c 1) 0 = false -> c_p0 c' = c_p0 c /\ creg c' 2 = creg c 2).
Proof.
  intros H Hl. destruct (opentx_step d c a (proj1 H) Hl) as (d'&c'&E&(P1&P2&P3&P4)&A1&A5&A6&A8&A9).
  exists d', c'. auto 12.
Qed.

Lemma step_inv o g d c : HInv d c -> d_pipe0_read_addr d = g -> pop_ok o ->
  exists d' c', run_pop CB o d c = (Ok tt, d', c')
    /\ HInv d' c' /\ d_pipe0_read_addr d' = ghost o g c /\ post o g c c'.
Proof.
  intros H Hg Hok. destruct o as [p a|p|a|b|b]; cbn [run_pop ghost post pop_ok] in *.
  - destruct Hok as (Hp&Hl&Hb). destruct (Z.eqb_spec p 0) as [->|Hne].
    + destruct (openrx0_inv d c a H Hl) as (d'&c'&E&HI&Er&P0&Pf&Pce&Ptx&_).
      exists d', c'. rewrite Er, P0. auto 7.
    + destruct Hb as [Hb|Hb]; [contradiction|].
      destruct (openrxN_inv d c p a H ltac:(lia) Hl Hb) as (d'&c'&E&HI&Er&Pce&P0&Ptx).
      exists d', c'. rewrite Er. auto 7.
  - destruct (close_inv d c p H Hok) as (d'&c'&E&HI&Er&Pce&P0&Ptx).
    exists d', c'. rewrite Er, Hg. auto 7.
  - destruct (opentx_step d c a (proj1 H) Hok) as (d'&c'&E&P&Er&_&_&_&HI).
    exists d', c'. rewrite Er, <- Hg. auto.
  - destruct (listen_step d c b (proj1 H)) as (d'&c'&E&P&Er&_&_&HI).
    exists d', c'. rewrite Er, <- Hg. auto.
  - destruct (autoack_inv d c b H) as (d'&c'&E&HI&Er&Pce&P0&Ptx&_).
    exists d', c'. rewrite Er. auto 7.
Qed.

Fixpoint holds (ops : list pop) (g : option (list N)) (d : drv) (c : cfg) : Prop :=
  match ops with
  | [] => True
  | o :: t => exists d' c', run_pop CB o d c = (Ok tt, d', c') /\ post o g c c' /\ holds t (ghost o g c) d' c'
  end.

Theorem pipe_history ops : forall g d c,
  HInv d c -> d_pipe0_read_addr d = g -> Forall pop_ok ops -> holds ops g d c.
Proof.
  induction ops as [|o t IH]; intros g d c H Hg Hok; cbn [holds]; [exact I|].
  inversion Hok as [|? ? Ho Ht]; subst.
  destruct (step_inv o _ d c H eq_refl Ho) as (d'&c'&E&HI&Er&P).
  exists d', c'. split; [exact E|]. split; [exact P|]. apply IH; assumption.
Qed.

Lemma sim_run_pop me o : sim me (run_pop (WB me) o) (run_pop CB o).
Proof.
  destruct o; cbn [run_pop];
    [apply sim_open_rx_pipe|apply sim_close_rx_pipe|apply sim_open_tx_pipe|apply sim_set_listen|apply sim_set_auto_ack_attr].
Qed.

Theorem listen_true_world me d w : PInvW me d w ->
  exists d1 w1, set_listen (WB me) true d w = (Ok tt, d1, w1)
    /\ let c1 := cview (get_radio w1 me) in
       c_ce c1 = true
       /\ N.land (creg c1 0) 3 = 3%N
       /\ match d_pipe0_read_addr d with
          | Some img => c_p0 c1 = img /\ N.testbit (creg c1 2) 0 = true
          | None => N.testbit (creg c1 2) 0 = false
          end
       /\ c_tx c1 = c_tx (cview (get_radio w me))
       /\ (forall j, j <> me -> cview (get_radio w1 j) = cview (get_radio w j)).
Proof.
  intros (Hme&Hp&_).
  destruct (listen_step d _ true Hp) as (d'&c'&He&(H1&H2&H3&H4)&_).
  destruct (sim_run me _ _ d w (sim_set_listen me true) Hme _ _ _ He) as [d1 [w1 [E [Hd [Hc [Hf _]]]]]].
  exists d1, w1. split; [exact E|]. rewrite Hc. repeat split; assumption.
Qed.

Lemma HInv_deq d d' c : deq d d' -> HInv d' c -> HInv d c.
Proof. intros He H. rewrite (deq_inv d d' He) in H. hinv H. Qed.

Fixpoint holdsW (me : nat) (ops : list pop) (g : option (list N)) (d : drv) (w : world) : Prop :=
  match ops with
  | [] => True
  | o :: t =>
    exists d' w', run_pop (WB me) o d w = (Ok tt, d', w')
      /\ post o g (cview (get_radio w me)) (cview (get_radio w' me))
      /\ (forall j, j <> me -> cview (get_radio w' j) = cview (get_radio w j))
      /\ holdsW me t (ghost o g (cview (get_radio w me))) d' w'
  end.

Theorem enter_establishes d c : WfC c -> DrvOk d -> DGood d ->
  exists d' c', enter CB d c = (Ok tt, d', c') /\ HInv d' c' /\ d_pipe0_read_addr d' = d_pipe0_read_addr d
    /\ c_ce c' = false.
Proof.
  intros Hw Hd (G0&G1&G2&G3). pose proof Hd as (D1&_). unfold byte_z in *.
  destruct (enter_c d c Hw Hd) as (c'&E&Hregs&P0&P1&PT&PCE&Hw').
  exists (entered d), c'. split; [exact E|]. split; [|auto].
  (* the entries of enter_regs for CONFIG, EN_AA and EN_RXADDR *)
  rewrite Forall_forall in Hregs.
  pose proof (Hregs (0%N, _) ltac:(cbn; eauto)) as R0. pose proof (Hregs (1%N, _) ltac:(cbn; eauto 6)) as R1.
  pose proof (Hregs (2%N, _) ltac:(cbn; eauto)) as R2. cbn [fst snd] in R0, R1, R2.
  pose proof (Z_lor_lt (d_config d) 2 7 ltac:(lia) ltac:(lia)) as L0.
  apply HInv_iff. split; [exact Hw'|]. split; [apply entered_ok; exact Hd|].
  split; [unfold DGood, entered; dsimp; split; [lia|auto]|].
  unfold Synced, entered. dsimp. rewrite R0, R1, R2, P0, PT.
  change 127%N with (N.ones 7). change 63%N with (N.ones 6).
  rewrite !land_small by (change (2 ^ 7)%N with 128%N; change (2 ^ 6)%N with 64%N; lia). auto.
Qed.

Example init_drv_good : DrvOk init_drv /\ DGood init_drv.
Proof.
  split.
  - unfold DrvOk, byte_z, init_drv. cbn. repeat split; try lia; repeat constructor; lia.
  - unfold DGood, init_drv. cbn. repeat split; try lia; intros; discriminate.
Qed.
