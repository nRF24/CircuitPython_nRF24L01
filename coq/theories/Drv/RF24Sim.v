(* RF24Sim.v -- the configuration-level semantics of the driver and the proof that the
   driver running on a world (any number of radios, any traffic) simulates it.

   The same driver code (Drv/RF24.v is generic in its bus) is instantiated twice:
     WB me : busops world  -- radio `me` of a world (what the correspondence check runs)
     CB    : busops cfg    -- a bare configuration record (registers, addresses, CE)
   For every configuration method m:  sim (m (WB me)) (m CB)  -- same result, same driver
   state up to the cached STATUS byte, and the world's radio `me` has exactly the
   configuration the cfg-level run computes, every other radio's configuration untouched.
   Theorems about configuration (C03, C08, C09) are then proved on the cfg-level run, which
   is a plain computable function, and transfer to every world (sim_run). *)
From Coq Require Import ZArith List Bool.
From NRF Require Import Env.World Env.WorldFacts Env.CfgFacts Drv.RF24.
Import ListNotations.
Local Open Scope Z_scope.

Definition CB : busops cfg :=
  mkBus cfg (fun c m => let '(c', tail) := cspi c m in (c', 0%N :: tail)) cset_ce
        (fun c => (c, 0%N)) (fun c _ => c).

Definition upd_in0 (v : N) (d : drv) : drv :=
  mkDrv v (d_config d) (d_rf_setup d) (d_open_pipes d) (d_dyn_pl d) (d_aa d) (d_features d)
        (d_retry_setup d) (d_channel d) (d_addr_len d) (d_pl_len d) (d_pipe0 d) (d_pipe1 d)
        (d_pipes25 d) (d_tx_address d) (d_pipe0_read_addr d) (d_is_plus d).

(* equality of driver states up to the cached STATUS byte *)
Definition deq (d d' : drv) : Prop := upd_in0 0 d = upd_in0 0 d'.

Lemma deq_refl d : deq d d. Proof. reflexivity. Qed.
Lemma deq_in0 d v : deq (upd_in0 v d) d. Proof. reflexivity. Qed.
Lemma deq_sym a b : deq a b -> deq b a.
Proof. unfold deq. congruence. Qed.

(* the second state is the first with another STATUS byte: one rewrite removes it *)
Lemma deq_inv d d' : deq d d' -> d' = upd_in0 (d_in0 d') d.
Proof. intros H. destruct d'. symmetry. exact (f_equal (upd_in0 _) H). Qed.

Lemma deq_fields d d' : deq d d' ->
  d_config d = d_config d' /\ d_rf_setup d = d_rf_setup d' /\ d_open_pipes d = d_open_pipes d'
  /\ d_dyn_pl d = d_dyn_pl d' /\ d_aa d = d_aa d' /\ d_features d = d_features d'
  /\ d_retry_setup d = d_retry_setup d' /\ d_channel d = d_channel d' /\ d_addr_len d = d_addr_len d'
  /\ d_pl_len d = d_pl_len d' /\ d_pipe0 d = d_pipe0 d' /\ d_pipe1 d = d_pipe1 d'
  /\ d_pipes25 d = d_pipes25 d' /\ d_tx_address d = d_tx_address d'
  /\ d_pipe0_read_addr d = d_pipe0_read_addr d' /\ d_is_plus d = d_is_plus d'.
Proof. intros H. rewrite (deq_inv d d' H). repeat split. Qed.

Lemma bind_ok {bus A B} {m : M (bus := bus) A} {f : A -> M B} {d b a d1 b1} :
  m d b = (Ok a, d1, b1) -> bind m f d b = f a d1 b1.
Proof. intro H. unfold bind. rewrite H. reflexivity. Qed.

Section Sim.
  Variable me : nat.

  Definition rel (w : world) (c : cfg) : Prop :=
    (me < length (radios w))%nat /\ cview (get_radio w me) = c.

  Definition frame (w w' : world) : Prop :=
    (forall j, j <> me -> cview (get_radio w' j) = cview (get_radio w j))
    /\ length (radios w') = length (radios w).

  Lemma frame_refl w : frame w w. Proof. split; reflexivity. Qed.
  Lemma frame_trans a b c : frame a b -> frame b c -> frame a c.
  Proof.
    intros [H1 L1] [H2 L2]. split; [|congruence]. intros j Hj. rewrite H2, H1 by exact Hj. reflexivity.
  Qed.

  (* radio me replaced by r, and then whatever exchanges follow *)
  Lemma rel_step w r w1 : (me < length (radios w))%nat -> same_cfg (set_radio w me r) w1 ->
    rel w1 (cview r) /\ frame w w1.
  Proof.
    intros Hme [L H]. unfold set_radio in L. cbn [radios] in L. rewrite set_nth_radio_length in L.
    split; split; try assumption.
    - rewrite L. exact Hme.
    - rewrite H, get_set_radio_same by exact Hme. reflexivity.
    - intros j Hj. rewrite H, get_set_radio_other by congruence. reflexivity.
  Qed.

  Lemma rel_spi w c mosi : rel w c ->
    rel (fst (w_spi w me mosi)) (fst (cspi c mosi)) /\ frame w (fst (w_spi w me mosi)).
  Proof. intros [Hme <-]. rewrite <- spi_cview. apply (rel_step _ _ _ Hme), w_spi_cfg_frame. Qed.

  Lemma rel_ce w c v : rel w c -> rel (w_ce w me v) (cset_ce c v) /\ frame w (w_ce w me v).
  Proof. intros [Hme <-]. exact (rel_step _ _ _ Hme (settle_cfg 8 _)). Qed.

  Lemma rel_tick w c n : rel w c -> rel (tick w n) c /\ frame w (tick w n).
  Proof. intros H. exact (conj H (frame_refl w)). Qed.

  Definition simR {A} (R : A -> A -> Prop) (m : M (bus := world) A) (m' : M (bus := cfg) A) : Prop :=
    forall d d' w c, deq d d' -> rel w c ->
      match m d w, m' d' c with
      | (r, d1, w1), (r', d1', c1) =>
        match r, r' with
        | Ok a, Ok a' => R a a'
        | Exn e, Exn e' => e = e'
        | _, _ => False
        end /\ deq d1 d1' /\ rel w1 c1 /\ frame w w1
      end.

  Definition sim {A} := @simR A eq.

  Lemma simR_ret {A} (R : A -> A -> Prop) a a' : R a a' -> simR R (ret a) (ret a').
  Proof. intros H d d' w c Hd Hr. exact (conj H (conj Hd (conj Hr (frame_refl w)))). Qed.

  Lemma sim_ret {A} (a : A) : sim (ret a) (ret a).
  Proof. apply simR_ret. reflexivity. Qed.

  Lemma sim_raise {A} e : sim (@raise world A e) (@raise cfg A e).
  Proof. intros d d' w c Hd Hr. exact (conj eq_refl (conj Hd (conj Hr (frame_refl w)))). Qed.

  Lemma simR_bind {A B} (R : A -> A -> Prop) (R2 : B -> B -> Prop) m m' f f' :
    simR R m m' -> (forall a a', R a a' -> simR R2 (f a) (f' a')) ->
    simR R2 (bind m f) (bind m' f').
  Proof.
    intros Hm Hf d d' w c Hd Hr. unfold bind.
    specialize (Hm d d' w c Hd Hr).
    destruct (m d w) as [[r d1] w1]. destruct (m' d' c) as [[r' d1'] c1].
    destruct Hm as [Hres [Hd1 [Hr1 Hfr]]].
    destruct r as [a|e], r' as [a'|e']; try contradiction.
    - specialize (Hf a a' Hres d1 d1' w1 c1 Hd1 Hr1).
      destruct (f a d1 w1) as [[r2 d2] w2]. destruct (f' a' d1' c1) as [[r2' d2'] c2].
      destruct Hf as [H1 [H2 [H3 H4]]].
      exact (conj H1 (conj H2 (conj H3 (frame_trans w w1 w2 Hfr H4)))).
    - exact (conj Hres (conj Hd1 (conj Hr1 Hfr))).
  Qed.

  Lemma sim_bind {A B} m m' (f : A -> M B) f' :
    sim m m' -> (forall a, sim (f a) (f' a)) -> sim (bind m f) (bind m' f').
  Proof. intros Hm Hf. apply (simR_bind eq eq); [exact Hm|]. intros a a' <-. apply Hf. Qed.

  (* the two runs may produce unrelated values where the continuation does not look at them *)
  Lemma sim_bind_any {A B} m m' (f : A -> M B) f' :
    simR (fun _ _ => True) m m' -> (forall a a', sim (f a) (f' a')) -> sim (bind m f) (bind m' f').
  Proof. intros Hm Hf. apply (simR_bind (fun _ _ => True) eq); [exact Hm|]. intros a a' _. apply Hf. Qed.

  (* reading the driver state: the continuation must not look at the STATUS byte *)
  Lemma sim_bind_get {B} (f : drv -> M B) f' :
    (forall v d, f' (upd_in0 v d) = f' d) -> (forall d, sim (f d) (f' d)) -> sim (bind get f) (bind get f').
  Proof.
    intros Hv Hf d d' w c Hd Hr.
    pose proof (Hf d d d' w c Hd Hr) as H. rewrite <- (Hv (d_in0 d') d), <- (deq_inv d d' Hd) in H. exact H.
  Qed.

  (* changing the driver state: by a function that leaves the STATUS byte alone *)
  Lemma sim_modify g : (forall v d, g (upd_in0 v d) = upd_in0 v (g d)) -> sim (modify g) (modify g).
  Proof.
    intros Hg d d' w c Hd Hr. cbn. rewrite (deq_inv d d' Hd), Hg.
    exact (conj eq_refl (conj (deq_refl _) (conj Hr (frame_refl w)))).
  Qed.

  Lemma sim_put v : sim (put v) (put v).
  Proof. intros d d' w c Hd Hr. exact (conj eq_refl (conj (deq_refl v) (conj Hr (frame_refl w)))). Qed.

  Lemma sim_as_byte v : sim (as_byte v) (as_byte v).
  Proof. unfold as_byte. destruct (_ && _); [apply sim_ret|apply sim_raise]. Qed.

  Lemma sim_set_ce v : sim (set_ce (WB me) v) (set_ce CB v).
  Proof. intros d d' w c Hd Hr. exact (conj eq_refl (conj Hd (rel_ce w c v Hr))). Qed.

  (* time: no effect on any configuration; the values read differ between the two runs, and on CB a sleep
     is `ret tt` by computation *)
  Lemma sim_sleep a b : sim (sleep (WB me) a) (sleep CB b).
  Proof. intros d d' w c Hd Hr. exact (conj eq_refl (conj Hd (rel_tick w c a Hr))). Qed.

  Lemma simR_now : simR (fun _ _ => True) (now (WB me)) (now CB).
  Proof. intros d d' w c Hd Hr. exact (conj I (conj Hd (rel_tick w c NOW_COST Hr))). Qed.

  Lemma sim_listen_delay s s' : sim (listen_delay (WB me) s) (listen_delay CB s').
  Proof.
    unfold listen_delay. apply sim_bind_any; [exact simR_now|]. intros t t'.
    destruct (_ <? _)%N, (_ <? _)%N.
    - apply sim_sleep.
    - apply sim_sleep with (b := 0%N).
    - apply (sim_ret tt).
    - apply sim_ret.
  Qed.

  (* one transfer, any command: radio `me` does what cspi says, the replies are related as far as
     R can be shown of them; the driver keeps MISO[0], which deq ignores *)
  Lemma simR_xfer (R : list N -> list N -> Prop) mosi :
    (forall w c, rel w c -> R (snd (w_spi w me mosi)) (0%N :: snd (cspi c mosi))) ->
    simR R (xfer (WB me) mosi) (xfer CB mosi).
  Proof.
    intros HR d d' w c Hd Hr. unfold xfer. cbn [b_spi WB CB].
    specialize (HR w c Hr). destruct (rel_spi w c mosi Hr) as [Hr1 Hf].
    destruct (w_spi w me mosi) as [w1 miso], (cspi c mosi) as [c1 tail].
    exact (conj HR (conj Hd (conj Hr1 Hf))).
  Qed.

  (* a configuration command: replies agree except for the STATUS byte *)
  Definition tail_eq (a b : list N) : Prop := tl a = tl b.

  Lemma simR_xfer_cfg cmd data : cfg_cmd cmd = true ->
    simR tail_eq (xfer (WB me) (cmd :: data)) (xfer CB (cmd :: data)).
  Proof.
    intros Hc. apply simR_xfer. intros w c [_ <-]. unfold tail_eq.
    rewrite w_spi_reply, spi_reply_cfg by exact Hc. reflexivity.
  Qed.

  Lemma sim_xfer_unit mosi :
    sim (bind (xfer (WB me) mosi) (fun _ => ret tt)) (bind (xfer CB mosi) (fun _ => ret tt)).
  Proof.
    apply sim_bind_any; [apply simR_xfer; trivial|]. intros _ _. apply sim_ret.
  Qed.

  Lemma sim_bind_as_byte {B} v (f : N -> M B) f' :
    sim (f (Z.to_N v)) (f' (Z.to_N v)) -> sim (bind (as_byte v) f) (bind (as_byte v) f').
  Proof. intros H. unfold as_byte. destruct (_ && _); [exact H|exact (sim_raise ValueError)]. Qed.

  Lemma sim_reg_read reg : cfg_cmd (Z.to_N reg) = true -> sim (reg_read (WB me) reg) (reg_read CB reg).
  Proof.
    intros Hc. apply sim_bind_as_byte. apply (simR_bind tail_eq eq); [exact (simR_xfer_cfg _ _ Hc)|].
    intros [|s t] [|s' t'] Ht; compute in Ht; subst; apply sim_ret.
  Qed.

  Lemma sim_reg_read_bytes reg n : cfg_cmd (Z.to_N reg) = true ->
    sim (reg_read_bytes (WB me) reg n) (reg_read_bytes CB reg n).
  Proof.
    intros Hc. apply sim_bind_as_byte. apply (simR_bind tail_eq eq); [exact (simR_xfer_cfg _ _ Hc)|].
    intros m m' Ht. unfold tail_eq in Ht. rewrite Ht. apply sim_ret.
  Qed.

  (* writes and bare commands drop the reply: nothing is asked of the register or command byte *)
  Lemma sim_reg_write_bytes reg buf : sim (reg_write_bytes (WB me) reg buf) (reg_write_bytes CB reg buf).
  Proof. apply sim_bind; [apply sim_as_byte|]. intros r. apply sim_xfer_unit. Qed.

  Lemma sim_reg_write reg value : sim (reg_write (WB me) reg value) (reg_write CB reg value).
  Proof.
    apply sim_bind; [apply sim_as_byte|]. intros r. apply sim_bind; [apply sim_as_byte|]. intros v.
    apply sim_xfer_unit.
  Qed.

  (* ACTIVATE: reg_write 0x50 0x73 *)
  Lemma sim_activate : sim (reg_write (WB me) 80 115) (reg_write CB 80 115).
  Proof. apply sim_reg_write. Qed.

  Lemma sim_command c : sim (command (WB me) c) (command CB c).
  Proof. apply sim_bind; [apply sim_as_byte|]. intros r. apply sim_xfer_unit. Qed.

End Sim.

(* a cfg-level run from the configuration of radio `me` gives the run on the world *)
Lemma sim_run {A} me (m : M (bus := world) A) m' d w :
  sim me m m' -> (me < length (radios w))%nat ->
  forall r' d1' c1, m' d (cview (get_radio w me)) = (r', d1', c1) ->
  exists d1 w1, m d w = (r', d1, w1) /\ deq d1 d1' /\ cview (get_radio w1 me) = c1
    /\ (forall j, j <> me -> cview (get_radio w1 j) = cview (get_radio w j))
    /\ (me < length (radios w1))%nat.
Proof.
  intros Hs Hme r' d1' c1 Hc.
  specialize (Hs d d w (cview (get_radio w me)) (deq_refl d) (conj Hme eq_refl)).
  rewrite Hc in Hs. destruct (m d w) as [[r d1] w1].
  destruct Hs as [Hres [Hd [[Hme1 Hcv] [Hfr _]]]].
  exists d1, w1. repeat split; try assumption.
  destruct r as [a|e], r' as [a'|e']; try contradiction; congruence.
Qed.

(* the two forms in which a configuration-level fact is read on a world: a call that returns a value, with the
   configuration it leaves on radio `me`; a call that raises without touching anything *)
Lemma sim_run_ok {A} me (m : M (bus := world) A) m' d w (a : A) c' :
  sim me m m' -> (me < length (radios w))%nat ->
  (exists d', m' d (cview (get_radio w me)) = (Ok a, d', c')) ->
  exists d1 w1, m d w = (Ok a, d1, w1) /\ cview (get_radio w1 me) = c'
    /\ (forall j, j <> me -> cview (get_radio w1 j) = cview (get_radio w j)).
Proof.
  intros Hs Hme (d' & E). destruct (sim_run me _ _ d w Hs Hme _ _ _ E) as (d1 & w1 & E1 & _ & Hc & Hf & _).
  exists d1, w1. auto.
Qed.

Lemma sim_run_exn {A} me (m : M (bus := world) A) m' d w e :
  sim me m m' -> (me < length (radios w))%nat ->
  m' d (cview (get_radio w me)) = (Exn e, d, cview (get_radio w me)) ->
  exists d1 w1, m d w = (Exn e, d1, w1) /\ (forall j, cview (get_radio w1 j) = cview (get_radio w j)).
Proof.
  intros Hs Hme E. destruct (sim_run me _ _ d w Hs Hme _ _ _ E) as (d1 & w1 & E1 & _ & Hc & Hf & _).
  exists d1, w1. split; [exact E1|]. intro j. destruct (Nat.eq_dec j me) as [->|Hj]; [exact Hc|exact (Hf j Hj)].
Qed.
