(* PipeFacts.v -- RX/TX switching and pipe 0 (property C08): what the theorems assume of an object and its radio,
   and small facts about address overlays and bit 0 that the proofs in PipeHist.v use. *)
From Coq Require Import ZArith NArith Arith List Bool Lia.
From NRF Require Import Base.Bits Base.Lists Env.Radio Env.World Env.WorldFacts Env.CfgFacts Drv.RF24 Drv.RF24Sim
     Drv.CfgEval Drv.CtxFacts.
Import ListNotations.
Local Open Scope Z_scope.

(* the part of "cached view = radio" that the pipe-0 logic relies on *)
Definition PInv (d : drv) (c : cfg) : Prop :=
  WfC c /\ DrvOk d
  /\ d_pipe0 d = c_p0 c /\ d_tx_address d = c_tx c
  /\ Z.of_N (creg c 2) = d_open_pipes d /\ Z.of_N (creg c 1) = d_aa d /\ Z.of_N (creg c 0) = d_config d
  /\ (forall img, d_pipe0_read_addr d = Some img ->
        length img = 5%nat /\ N.testbit (creg c 2) 0 = true).

Definition RegsByte (c : cfg) : Prop := forall a, (creg c a < 256)%N.

Definition PInvW (me : nat) (d : drv) (w : world) : Prop :=
  (me < length (radios w))%nat /\ PInv d (cview (get_radio w me)) /\ RegsByte (cview (get_radio w me)).

(* Python's truth test of `x & 1` is bit 0 of x *)
Lemma truthy_land1 x : truthy (Z.land x 1) = Z.testbit x 0.
Proof.
  unfold truthy. change 1 with (Z.ones 1). rewrite Z.land_ones, Z.bit0_odd, Zmod_odd by lia.
  destruct (Z.odd x); reflexivity.
Qed.

(* the pipe-0 logic tests bit 0 of the cached EN_RXADDR, EN_AA and CONFIG: under PInv they are the registers' *)
Lemma PInv_bit0 d c : PInv d c ->
  Z.testbit (d_open_pipes d) 0 = N.testbit (creg c 2) 0 /\ Z.testbit (d_aa d) 0 = N.testbit (creg c 1) 0
  /\ Z.testbit (d_config d) 0 = N.testbit (creg c 0) 0.
Proof. intros (_&_&_&_&<-&<-&<-&_). repeat split; exact (N2Z.inj_testbit _ 0). Qed.

Lemma shiftl1_bit0 p : 0 <= p -> Z.testbit (Z.shiftl 1 p) 0 = (p =? 0).
Proof.
  intro H. rewrite Z.shiftl_spec by lia. destruct (Z.eqb_spec p 0) as [->|Hn]; [reflexivity|].
  apply Z.testbit_neg_r. lia.
Qed.

Lemma shiftl1_lt64 p : 0 <= p <= 5 -> 0 <= Z.shiftl 1 p < 2 ^ 6.
Proof. intro H. rewrite Z.shiftl_1_l. split; [apply Z.pow_nonneg; lia|apply Z.pow_lt_mono_r; lia]. Qed.

(* CONFIG after the role switch: the two low bits are PWR_UP and PRIM_RX = is_rx *)
Lemma role_bits cf b :
  N.land (N.land (Z.to_N (Z.lor (Z.land cf 252) (2 + zb b))) 127) 3 = (if b then 3 else 2)%N.
Proof.
  rewrite <- N.land_assoc. change (N.land 127 3) with (Z.to_N 3).
  assert (0 <= Z.land cf 252) by (apply Z.land_nonneg; right; lia).
  assert (0 <= 2 + zb b) by (destruct b; cbn; lia).
  rewrite to_N_land by (try apply Z.lor_nonneg; lia || auto).
  rewrite Z.land_lor_distr_l, <- Z.land_assoc. change (Z.land 252 3) with 0. rewrite Z.land_0_r.
  destruct b; reflexivity.
Qed.

(* the values the pipe-0 logic writes (CONFIG with the role bits; EN_RXADDR with bits cleared or set): they are
   bytes, keep out of reserved bits if the cached byte did, and have the bit 0 they should *)
Lemma role_cfg_facts cf b : 0 <= cf <= 255 ->
  let cv := Z.lor (Z.land cf 252) (2 + zb b) in byte_z cv /\ (cf < 128 -> cv < 128).
Proof.
  intros Hc cv. pose proof (Z_land_le cf 252 ltac:(lia)). pose proof (Z_land_le 252 cf ltac:(lia)) as Hl.
  rewrite Z.land_comm in Hl. assert (0 <= 2 + zb b < 4) by (destruct b; cbn; lia).
  split; [pose proof (Z_lor_lt (Z.land cf 252) (2 + zb b) 8); unfold byte_z, cv; lia|].
  intro. apply (Z_lor_lt _ _ 7); lia.
Qed.

Lemma land_facts op m : 0 <= op <= 255 ->
  let v := Z.land op m in byte_z v /\ (op < 64 -> v < 64) /\ Z.testbit v 0 = Z.testbit op 0 && Z.testbit m 0.
Proof.
  intros Ho v. pose proof (Z_land_le m op ltac:(lia)) as Hv. rewrite Z.land_comm in Hv. fold v in Hv.
  split; [unfold byte_z; lia|]. split; [lia|apply Z.land_spec].
Qed.

Lemma lor_facts op m : 0 <= op <= 255 -> 0 <= m < 64 ->
  let v := Z.lor op m in byte_z v /\ (op < 64 -> v < 64) /\ Z.testbit v 0 = Z.testbit op 0 || Z.testbit m 0.
Proof.
  intros Ho Hm v. split; [pose proof (Z_lor_lt op m 8); unfold byte_z, v; lia|]. split.
  - intro. apply (Z_lor_lt _ _ 6); lia.
  - apply Z.lor_spec.
Qed.

Lemma overlay_prefix (a old : list N) : (length a <= length old)%nat ->
  overlay a old = a ++ skipn (length a) old /\ firstn (length a) (overlay a old) = a.
Proof.
  intros H. unfold overlay.
  assert (E : firstn (length old) (a ++ skipn (length a) old) = a ++ skipn (length a) old).
  { apply firstn_all2. rewrite app_length, skipn_length. lia. }
  rewrite E. split; [reflexivity|apply firstn_app_exact].
Qed.

Lemma overlay_into_ok {bus} (a old : list N) (d : drv) (b : bus) : (length a <= length old)%nat ->
  overlay_into a old d b = (Ok (overlay a old), d, b).
Proof.
  intro H. unfold overlay_into. replace (Nat.leb (length a) (length old)) with true by (symmetry; apply Nat.leb_le; exact H).
  rewrite (proj1 (overlay_prefix a old H)). reflexivity.
Qed.

(* set_listen and open_tx_pipe put pipe 0 on a complete address a by `if RX_ADDR_P0 is not a yet: cache a and
   write it`.  The cache being that of the radio, the outcome is that of the write whether it happens or not. *)
Lemma set_p0_c (t : bool) a d c : d_pipe0 d = c_p0 c -> length a = length (d_pipe0 d) -> (t = false -> a = d_pipe0 d) ->
  exists x, (if t then bind (overlay_into a (d_pipe0 d))
                          (fun p => bind (modify (upd_pipe0 p)) (fun _ => reg_write_bytes CB 10 a))
             else ret tt) d c = (Ok tt, upd_in0 x (upd_pipe0 a d), cwrite c 10 a).
Proof.
  intros Hp Hl Ht. destruct t.
  - exists 0%N. erewrite bind_ok by (apply overlay_into_ok; rewrite Hl; apply le_n). rewrite overlay_full by exact Hl.
    mstep side0. apply reg_write_bytes_c. side0.
  - rewrite (Ht eq_refl), Hp, cwrite_p0_idle, <- Hp. exists (d_in0 d). destruct d; reflexivity.
Qed.
