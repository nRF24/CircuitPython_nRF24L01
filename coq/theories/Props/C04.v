(* Props/C04.v -- property C04: tree routing connects all 781 addresses; pipe
   addresses never collide.  Statements; each is closed by `exact`,
   or in a few lines from the lemmas of Net/AddrFacts.v, RouteFacts.v, PipeFacts.v. *)
From Coq Require Import NArith List Bool Lia.
From NRF Require Import Net.Addr Net.AddrFacts Net.RouteFacts Net.PipeFacts.
Import ListNotations.
Local Open Scope N_scope.

(* For every ordered pair of the 781 valid node addresses, iterating each node's own
   next-hop choice (_logi_2_phys with the constants _begin computed; TX_NORMAL at the
   origin, TX_ROUTED at forwarders) reaches the destination; the nodes visited are
   exactly tree_path s d (up to the common ancestor, then down); at most 8 hops; every
   hop is the sender's parent or a direct child; every hop goes to pipe 1..5 of a node
   of the address space -- the parent's pipe being the sender's own child number and a
   child's pipe being 5 -- i.e. to a (node, pipe) pair that this next hop opens. *)
Theorem C04_route : forall s d,
  In s all_nodes -> In d all_nodes ->
  exists r, route 10 TX_NORMAL s d = Some r
    /\ map fst r = tree_path s d
    /\ (length r <= 8)%nat
    /\ steps_ok s (map fst r) = true
    /\ last (map fst r) s = d
    /\ pipes_ok s r = true.
Proof. exact route_correct. Qed.
Print Assumptions C04_route.

(* all_nodes is the set the property speaks about: 0 and 1..4 octal digits in 1..5 *)
Theorem C04_all_nodes : forall a,
  In a all_nodes <->
  exists ds, (length ds <= 4)%nat /\ Forall (fun d => 1 <= d <= 5) ds /\ a = of_digits ds.
Proof. exact all_nodes_digits. Qed.
Print Assumptions C04_all_nodes.

(* For ARBITRARY address_prefix / address_suffix bytes that are pairwise distinct, and
   allow_multicast on or off: two different listened-on (node, pipe) pairs never have
   the same 5-byte physical address.  keys true = all nodes x pipes 1..5 plus the five
   level addresses on pipe 0; keys false = all nodes x pipes 0..5. *)
Theorem C04_pipe_injective : forall prefix suffix,
  NoDup (prefix :: suffix) -> length suffix = 6%nat ->
  forall mc k1 k2, In k1 (keys mc) -> In k2 (keys mc) ->
  pipe_address prefix suffix mc (fst k1) (snd k1) = pipe_address prefix suffix mc (fst k2) (snd k2) ->
  k1 = k2.
Proof.
  intros prefix suffix Hnd Hlen mc k1 k2 H1 H2. unfold pipe_address.
  destruct (keys_pattern mc k1 H1) as (ps & -> & <- & _ & F1).
  destruct (keys_pattern mc k2 H2) as (qs & -> & <- & _ & F2).
  intro E. injection E as E. f_equal. exact (map_lookup_inj prefix suffix Hnd Hlen ps qs F1 F2 E).
Qed.
Print Assumptions C04_pipe_injective.

Theorem C04_pipe_defined : forall prefix suffix mc k,
  In k (keys mc) ->
  exists bs, pipe_address prefix suffix mc (fst k) (snd k) = Some bs /\ length bs = 5%nat.
Proof.
  intros prefix suffix mc k H. unfold pipe_address. destruct (keys_pattern mc k H) as (ps & -> & _ & L & _).
  eexists. split; [reflexivity|]. rewrite map_length. exact L.
Qed.
Print Assumptions C04_pipe_defined.

(* pipes 1..5 of one node differ only in their first byte *)
Theorem C04_hw_shape : forall prefix suffix mc a p q,
  In a all_nodes -> In p pipes15 -> In q pipes15 ->
  exists x y t, pipe_address prefix suffix mc a p = Some (x :: t)
             /\ pipe_address prefix suffix mc a q = Some (y :: t).
Proof.
  intros prefix suffix mc a p q Ha Hp Hq. apply pipes15_range in Hp, Hq.
  destruct (node_pattern a Ha) as [t E]. unfold pipe_address.
  destruct (E mc p) as [-> _]; [lia|right; lia|]. destruct (E mc q) as [-> _]; [lia|right; lia|].
  cbn [map]. eauto.
Qed.
Print Assumptions C04_hw_shape.

(* with multicast on, the pipe-0 address node a opens is the shared address of its
   level -- exactly the address multicast() to that level transmits to; by
   C04_pipe_injective two nodes share it iff their levels are equal *)
Theorem C04_level_pipe0 : forall prefix suffix a,
  In a all_nodes ->
  pipe_address prefix suffix true a 0 =
  pipe_address prefix suffix true (lvl_2_addr (N.of_nat (length (digits_of 8 a)))) 0.
Proof. exact level_pipe0. Qed.
Print Assumptions C04_level_pipe0.

(* _begin's level and parent are the digit count and the address without its top digit *)
Theorem C04_consts : forall a, In a all_nodes ->
  exists c, begin_consts a = Some c
    /\ c_lvl c = N.of_nat (length (digits_of 8 a)) /\ c_parent c = parent_of a.
Proof.
  intros a Ha. destruct (node_consts a Ha) as (c & E & _ & _ & El & Ep & _). eauto.
Qed.
Print Assumptions C04_consts.

(* the multicast_level override (stored where _begin put the node's level) has no influence on unicast routing *)
Theorem C04_routing_ignores_multicast_level : forall c l to_node send_type,
  logi_2_phys (mkConsts (c_addr c) (c_mask c) (c_mask_inv c) l (c_parent c) (c_ppipe c)) to_node send_type
  = logi_2_phys c to_node send_type.
Proof. reflexivity. Qed.
Print Assumptions C04_routing_ignores_multicast_level.
