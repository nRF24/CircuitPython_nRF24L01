(* Props/C16.v -- property C16: the mesh master leases each logical address to at most one node ID.
   Statements, each proved in a few lines from the lemmas of Net/DhcpFacts.v, KeepFacts.v or MasterFacts.v.
   The table functions dhcp_pick, set_address and release_addr are the ones the monadic master of Net/Mesh.v calls
   on its dhcp_dict (load_json, load_bin and save_bin are called by the API of Net/NodeRun.v); the differential run (corr/c16.py) ties that
   master to rf24_mesh.py.
   The last two theorems are about the monadic master itself: the network layer never touches the
   table, and RF24Mesh.update() keeps it one-to-one whatever arrives, on every bus. *)
From Coq Require Import ZArith NArith List Bool.
From NRF Require Import Drv.RF24 Net.Addr Net.Node Net.Mesh Net.DhcpFacts Net.KeepFacts Net.MasterFacts.
Import ListNotations.
Local Open Scope Z_scope.

(* For EVERY history of requests (any ID, any relay, direct or not), releases and loads of either
   file format, starting from any one-to-one table (the empty one in particular): every ID holds at
   most one lease and no address is held by two IDs. *)
Theorem C16_one_id_per_address : forall evs d, Inj d -> Inj (fold_left table_step evs d).
Proof. exact inj_history. Qed.
Print Assumptions C16_one_id_per_address.

Theorem C16_empty_table_ok : Inj [].
Proof. exact inj_nil. Qed.
Print Assumptions C16_empty_table_ok.

(* A served request (direct, or relayed by any valid node of level 0..3 that is not a multicast
   placeholder) leases a valid address, not 0, not 0o4444, not a multicast placeholder, whose parent
   is the relaying node (the master for direct requests), and which no other ID holds. *)
Theorem C16_lease_is_a_free_valid_child :
  forall (d : list (Z * Z)) (rid via : Z) (direct : bool) (a : Z),
  0 <= via < 4096 -> is_address_valid (Z.to_N via) = true -> level_of 8 via <= 3 ->
  via <> 64 -> via <> 8 -> via <> 512 ->
  dhcp_pick d rid (if direct then 5%nat else 4%nat) (if direct then 0 else via)
            (if direct then 0 else 3 * level_of 8 via) = Some a ->
  let base := if direct then 0 else via in
  a <> 0 /\ a <> 2340 /\ is_address_valid (Z.to_N a) = true /\ Z.of_N (parent_of (Z.to_N a)) = base
  /\ a <> 64 /\ a <> 8 /\ a <> 512
  /\ fresh_for d rid a.
Proof.
  intros d rid via direct a Hv Hval Hl H64 H8 H512 Hp base. destruct direct.
  - apply (lease_spec d rid 5 0 a); [easy..|exact Hp].
  - apply (lease_spec d rid 4 via a); [apply Hv|assumption..|auto|exact Hp].
Qed.
Print Assumptions C16_lease_is_a_free_valid_child.

(* A request goes unanswered only when every child slot is 0o4444 or held by another ID. *)
Theorem C16_refusal_means_full : forall d rid i via sh,
  dhcp_pick d rid i via sh = None ->
  forall j, (1 <= j <= i)%nat ->
    let a := Z.lor via (Z.shiftl (Z.of_nat j) sh) in
    a = 2340 \/ exists k, k <> rid /\ In (k, a) d.
Proof. intros d rid i via sh H. generalize (dhcp_pick_spec d rid i via sh). rewrite H. exact (fun x => x). Qed.
Print Assumptions C16_refusal_means_full.

(* A released address is free again, and the other leases are kept. *)
Theorem C16_release_frees : forall d a, Inj d -> forall k, ~ In (k, a) (snd (release_addr d a)).
Proof. exact release_frees. Qed.
Print Assumptions C16_release_frees.
Theorem C16_release_keeps_others : forall d a k v,
  Inj d -> v <> a -> In (k, v) d -> In (k, v) (snd (release_addr d a)).
Proof. intros d a k v HI Hne Hin. apply release_spec; auto. Qed.
Print Assumptions C16_release_keeps_others.

(* Persistence: for EVERY one-to-one table with IDs 0..255 and addresses 0..65535 (any size), the
   binary file holds 4 bytes per entry and loading it into an empty table gives the table back,
   entry for entry and in order; same for the (id, address) pairs of the JSON file. *)
Theorem C16_binary_roundtrip : forall d bytes,
  in_range d -> Inj d -> save_bin d = Ok bytes -> load_bin (length d) bytes [] = d.
Proof.
  intros d bytes Hr HI E. destruct (save_bin_spec d Hr) as (bs & E' & _ & P). rewrite E in E'. injection E' as <-.
  rewrite load_bin_json, P. exact (load_json_app d [] HI).
Qed.
Print Assumptions C16_binary_roundtrip.
Theorem C16_binary_save_total : forall d, in_range d ->
  exists bytes, save_bin d = Ok bytes /\ length bytes = (4 * length d)%nat.
Proof. intros d H. destruct (save_bin_spec d H) as (bs & E & L & _). exists bs. auto. Qed.
Print Assumptions C16_binary_save_total.
Theorem C16_json_roundtrip : forall d, Inj d -> load_json d [] = d.
Proof. intro d. exact (load_json_app d []). Qed.
Print Assumptions C16_json_roundtrip.

(* The network layer (Net/Node.v: _net_update, the handlers, _write, _write_to_pipe, the fragment loop, the
   NETWORK_ACK wait) never changes node ID, lease table or the pending-request flag: on EVERY bus (any world,
   any traffic, any loss pattern), for every amount of fuel. *)
Theorem C16_network_layer_keeps_the_table : forall bus (B : busops bus) fuel,
  (forall rv, Keeps (net_update B fuel rv)) /\ (forall wd st, Keeps (write_ B fuel wd st)).
Proof. intros bus B fuel. split; [intro rv; apply keeps_net_update|intros wd st; apply keeps_write]. Qed.
Print Assumptions C16_network_layer_keeps_the_table.

(* RF24Mesh.update() on the master, as modelled (frame reception, dispatch to request / release / lookup handling,
   _dhcp(), the replies it transmits): if no address is held by two IDs before the call, none is afterwards --
   whatever bytes have arrived, in every world, and hence after any number of calls. *)
Theorem C16_master_update_keeps_table_one_to_one : forall bus (B : busops bus) n b,
  Inj (n_dhcp n) -> Inj (n_dhcp (snd (fst (update_master B n b)))).
Proof. intros bus B n b HI. exact (inj_reach _ _ HI (update_master_history B n b)). Qed.
Print Assumptions C16_master_update_keeps_table_one_to_one.

(* non-vacuity: a concrete history on which requests are served, served again and released *)
Example C16_history_example :
  fold_left table_step
    [Request 7 0 true; Request 9 0 true; Request 7 0 true; Request 3 5 false; Release 4; Request 11 0 true] []
  = [(7, 5); (3, 37); (11, 4)].
Proof. vm_compute. reflexivity. Qed.
