(* Props/C06.v -- property C06: reassembly never delivers a message that was not sent
   in full.  Statements, with short proofs from the definition of frag_enqueue and the
   lemmas of Net/FragFacts.v (C06_no_splice: induction on the stream). *)
From Coq Require Import ZArith NArith List Bool.
From NRF Require Import Net.Header Net.Queue Net.FragFacts.
Import ListNotations.
Local Open Scope Z_scope.

(* S = any finite set of sent messages (any number of senders; frame ids may coincide
   between senders: only (origin, destination, id) triples are distinct), each with
   in-range header fields, a non-fragment message type and at most 24*255 bytes.
   An arrival stream is ANY list of Arrive f / Dequeue events in which every arriving
   frame is one of the frames some sent message is transmitted as (so: any subset, any
   duplication, any order, any interleaving, stray MORE/LAST without FIRST, dequeues at
   arbitrary points).  Then, from any state satisfying the invariant (the empty queue
   does): enqueue never raises, and every frame the application dequeues carries
   exactly one sent message -- its origin, destination, frame id, type and bytes. *)
Theorem C06_no_splice : forall (S : list message),
  (forall m, In m S -> wf_msg m) -> NoDup (map mkey S) ->
  forall es q, FInv S q -> stream_ok S es ->
  exists out qf, run_stream q es = Some (out, qf) /\ FInv S qf
    /\ Forall (fun f => exists m, In m S /\ delivers m f) out.
Proof.
  intros S S_wf S_keys es. induction es as [|e es IH]; intros q Hq Hs.
  - exists [], q. split; [reflexivity|]. split; [exact Hq|constructor].
  - inversion Hs as [|x xs He Hes]; subst. destruct e as [f|].
    + destruct He as [m [Hm Hf]].
      destruct (arrive_inv S S_wf S_keys q m f Hq Hm Hf) as [r [q' [e [Hfe Hq']]]].
      cbn. rewrite Hfe. exact (IH q' Hq' Hes).
    + cbn. destruct (dequeue (base q)) as [o b'] eqn:Hd.
      destruct (dequeue_FInv S q o b' Hq Hd) as [Hq' Ho].
      destruct (IH _ Hq' Hes) as [out [qf [Hr [Hqf Hout]]]].
      rewrite Hr. eexists _, qf. split; [reflexivity|]. split; [exact Hqf|].
      destruct o as [f|]; [|exact Hout]. constructor; [exact (Ho f eq_refl)|exact Hout].
Qed.
Print Assumptions C06_no_splice.

Theorem C06_invariant_initially : forall S, FInv S empty_fragq.
Proof. intro S. split; [exact I|]. split; [constructor|]. intros f []. Qed.
Print Assumptions C06_invariant_initially.

(* Incomplete / out-of-sequence / repeated fragments are DISCARDED: queue and cache are
   left exactly as they were and enqueue returns False. *)
Theorem C06_discard_no_first : forall q f,
  is_frag_type (message_type (hdr f)) = true -> is_type (message_type (hdr f)) MSG_FRAG_FIRST = false ->
  cache q = None -> frag_enqueue q f = Some (false, q, false).
Proof. intros q f H1 H2 H3. unfold frag_enqueue. rewrite H1, H2, H3. reflexivity. Qed.
Print Assumptions C06_discard_no_first.

Theorem C06_discard_other_message : forall q f c,
  is_frag_type (message_type (hdr f)) = true -> is_type (message_type (hdr f)) MSG_FRAG_FIRST = false ->
  cache q = Some c ->
  (from_node (hdr f) =? from_node (hdr c)) && (to_node (hdr f) =? to_node (hdr c))
    && (frame_id (hdr f) =? frame_id (hdr c)) = false ->
  frag_enqueue q f = Some (false, q, false).
Proof. intros q f c H1 H2 H3 H4. unfold frag_enqueue. rewrite H1, H2, H3, H4. reflexivity. Qed.
Print Assumptions C06_discard_other_message.

Theorem C06_discard_out_of_sequence : forall q f c,
  is_frag_type (message_type (hdr f)) = true -> is_type (message_type (hdr f)) MSG_FRAG_FIRST = false ->
  cache q = Some c ->
  (if is_type (message_type (hdr f)) MSG_FRAG_LAST then 2 <? reserved (hdr c)
   else negb (reserved (hdr c) - 1 =? reserved (hdr f))) = true ->
  frag_enqueue q f = Some (false, q, false).
Proof.
  intros q f c H1 H2 H3 H4. unfold frag_enqueue. rewrite H1, H2, H3.
  destruct (_ && _ && _); [|reflexivity].
  destruct (is_type (message_type (hdr f)) MSG_FRAG_LAST); rewrite H4; reflexivity.
Qed.
Print Assumptions C06_discard_out_of_sequence.

(* At most once, as far as a one-message cache can promise it: whenever a LAST fragment
   changes the queue (a message was completed) the cache is empty afterwards, so by
   C06_discard_no_first every repeated MORE/LAST is discarded until a new FIRST fragment
   arrives.  (A complete replay FIRST..LAST after the application dequeued the first
   copy is delivered again: known finding C06/complete-replay-delivered-again.) *)
Theorem C06_completion_clears_cache : forall q f r q' e,
  is_type (message_type (hdr f)) MSG_FRAG_LAST = true ->
  frag_enqueue q f = Some (r, q', e) -> q' <> q -> cache q' = None.
Proof.
  intros q f r q' e Hl H Hne. destruct (message_type (hdr f)) as [z|] eqn:Ht; [|discriminate].
  apply Z.eqb_eq in Hl. subst z.
  destruct (frag_enqueue_cont q f true Ht) as [E|(c & _ & _ & _ & E)]; [congruence|].
  rewrite H in E. destruct (mask_hdr (hdr f)); [|discriminate].
  destruct (enqueue _ _) as [[r0 b']|]; [|discriminate]. inversion E; reflexivity.
Qed.
Print Assumptions C06_completion_clears_cache.
