(* Props/C15.v -- property C15, the validity predicate (that update() never raises and drops what it must is
   checked, not proved).  Each theorem is a line or two from the lemmas of Net/AddrFacts.v. *)
From Coq Require Import NArith List Bool Lia.
From NRF Require Import Net.Addr Net.AddrFacts.
Import ListNotations.
Local Open Scope N_scope.

(* For EVERY natural number a (not only 16-bit ones): is_address_valid accepts a iff a
   is 0 or one to four octal digits each in 1..5 (of_digits of such a digit list; the
   empty list is 0), or one of the reserved multicast addresses 0o100, 0o10, 0o1000. *)
Theorem C15_valid_spec : forall a,
  is_address_valid a = true <->
  (exists ds, (length ds <= 4)%nat /\ Forall (fun d => 1 <= d <= 5) ds /\ a = of_digits ds)
  \/ a = 64 \/ a = 8 \/ a = 512.
Proof. intro a. rewrite valid_iff, all_nodes_digits. tauto. Qed.
Print Assumptions C15_valid_spec.

Theorem C15_valid_nodes : forall a,
  is_address_valid a = true <-> In a all_nodes \/ a = 64 \/ a = 8 \/ a = 512.
Proof. exact valid_iff. Qed.
Print Assumptions C15_valid_nodes.

(* the loop's fuel is never the reason for a rejection *)
Theorem C15_valid_fuel : forall a, valid_loop 8 a 0 = valid_loop 9 a 0.
Proof. intro a. rewrite (valid_loop_digits 8 8), (valid_loop_digits 9 8) by (cbn; lia). reflexivity. Qed.
Print Assumptions C15_valid_fuel.
