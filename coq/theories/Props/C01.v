(* Props/C01.v -- property C01 (what send() is given is what the peer's read() returns).  The theorems, proved from
   the lemmas of Env/WorldFacts.v, Env/QuietFacts.v, Drv/SendFacts.v and Drv/RecvFacts.v.  The property is a chain of
   three links, each proved for the models:
     (1) transmitter: send() loads exactly the normalised payload and raises CE (C02_send_truth, Props/C02.v:
         the world in which the exchange takes place has `loaded ... b` queued, b = norm_payload of the caller's buffer);
     (2) air: an exchange whose first attempt is not lost puts exactly that payload, once, on the matching pipe
         of a compatible listening receiver with room in its FIFO -- however many retransmissions follow;
     (3) receiver: read() returns the payload at the head of the RX FIFO and removes it.
   PARTIAL, see DESIGN.md section 7: the links are proved separately (1 and 3 for a transmitter/receiver in a
   world whose other radios do not transmit); their composition over streams of payloads, list arguments,
   role swaps, and that the caller's buffer is left alone are decided by the correspondence run and its
   delivery checker (corr/c01.py). *)
From Coq Require Import ZArith NArith List Bool.
From NRF Require Import Env.Radio Env.World Env.RadioFacts Env.WorldFacts Env.WfFacts Env.QuietFacts
     Drv.RF24 Drv.SendFacts Drv.RecvFacts.
Import ListNotations.
Local Open Scope N_scope.

Theorem C01_status_is_pre_command : forall r cmd data, hd 0 (snd (spi r (cmd :: data))) = status r.
Proof. exact spi_status_first. Qed.
Print Assumptions C01_status_is_pre_command.

(* (2) the air *)
Theorem C01_exchange_delivers : forall w si j e rest p,
  (si < length (radios w))%nat -> (j < length (radios w))%nat -> j <> si ->
  tx_fifo (get_radio w si) = e :: rest ->
  match oracle w with PacketLost :: _ => False | _ => True end ->
  rx_pipe (get_radio w si) (get_radio w j) (tx_data e) = Some p ->
  rx_full (get_radio w j) = false -> is_dup (get_radio w j) (tx_pid e) (tx_data e) = false ->
  rx_fifo (get_radio (exchange w si) j) = rx_fifo (get_radio w j) ++ [(p, tx_data e)].
Proof.
  intros w si j e rest p _ _ Hne Ht Hor Hp Hfull Hdup.
  (* WorldFacts.exchange_round for "once radio j holds the packet, its RX FIFO stays as it is": the first round
     puts the packet on the air and radio j stores it; whatever follows finds it a duplicate *)
  destruct (exchange_round si e (fun i r r' => i = j -> is_dup r (tx_pid e) (tx_data e) = true ->
              rx_fifo r' = rx_fifo r /\ is_dup r' (tx_pid e) (tx_data e) = true)) with (6 := Ht)
    as (noack & w' & [_ [[Hl _]|[h Hd]]] & _ & H); [auto| | |congruence|congruence| |].
  - intros i a b c H1 H2 Hi Ha. destruct (H1 Hi Ha) as [A1 A2]. destruct (H2 Hi A2) as [B1 B2]. split; congruence.
  - intros i r q noack h _ _ _ Hd. pose proof (receive_rx r q (tx_pid e) noack (tx_data e) h) as F.
    rewrite Hd, orb_true_r in F. destruct F as [A B]. split; [exact A|]. unfold is_dup. rewrite B. exact Hd.
  - destruct (oracle w) as [|[] ?]; contradiction.
  - specialize (H j eq_refl). specialize (Hd j). unfold delivered in Hd. rewrite (proj2 (Nat.eqb_neq j si) Hne), Hp in Hd.
    pose proof (receive_rx (get_radio w j) p (tx_pid e) noack (tx_data e) h) as F. rewrite Hfull, Hdup, <- Hd in F.
    destruct F as [F L]. rewrite <- F. apply H, is_dup_last, L.
Qed.
Print Assumptions C01_exchange_delivers.

(* a retransmitted packet (same PID and payload as the last one accepted) is never queued twice *)
Theorem C01_duplicates_are_dropped : forall r p pid noack d h, is_dup r pid d = true ->
  let r' := fst (fst (receive r p pid noack d h)) in
  rx_fifo r' = rx_fifo r /\ last_rx r' = last_rx r.
Proof. intros r p pid noack d h Hd. pose proof (receive_rx r p pid noack d h) as H. rewrite Hd, orb_true_r in H. exact H. Qed.
Print Assumptions C01_duplicates_are_dropped.

(* (3) the receiver *)
Theorem C01_read_returns_the_head : forall me d w p data rest,
  Q me w -> WfR (get_radio w me) -> prim_rx (get_radio w me) = true ->
  rx_fifo (get_radio w me) = (p, data) :: rest -> (1 <= length data <= 32)%nat ->
  (truthy (Z.land (d_features d) 4) = true \/ pl_len_at d (N.to_nat p) = Z.of_nat (length data)) ->
  exists d' w', read (WB me) None d w = (Ok (Some data), d', w')
    /\ rx_fifo (get_radio w' me) = rest
    /\ tx_fifo (get_radio w' me) = tx_fifo (get_radio w me)
    /\ N.testbit (flags (get_radio w' me)) 6 = false.
Proof.
  intros me d w p data rest Hq Wf Hprx Hrx Hlen Hmode.
  destruct (runs_read me d _ p data rest Wf (idle_prx _ Hprx) Hrx Hlen Hmode w (clock w) Hq) as (c' & E).
  rewrite (put_init me w Hq) in E.
  eexists _, _. split; [exact E|]. rewrite (get_put me w _ c' Hq).
  cbn [rx_fifo tx_fifo flags with_flags with_fifos]. repeat split. rewrite N.land_spec. apply andb_false_r.
Qed.
Print Assumptions C01_read_returns_the_head.

(* (1') the streaming form of the transmitter link: write(buf, ask_no_ack, write_only=True) with CE low returns True
   exactly when the TX FIFO had room at that moment (the STATUS byte shifted out with the flag-clearing transfer, not
   a cached one) and has then appended exactly the normalised payload; it returns False and leaves the FIFO untouched
   otherwise.  Nothing goes on the air, no other radio changes.  Hence an accepted payload is queued exactly once and
   a refused one not at all -- for every world whose other radios do not transmit. *)
Theorem C01_write_accepts_iff_room : forall me d w buf b noack,
  Q me w -> AllWf w -> ce (get_radio w me) = false ->
  norm_payload d buf = Ok b ->
  let s := get_radio w me in
  exists d' w',
    write (WB me) buf noack true d w = (Ok (negb (tx_full s)), d', w')
    /\ get_radio w' me = (if tx_full s then with_flags s 0 else loaded (with_flags s 0) noack b)
    /\ (forall j, j <> me -> get_radio w' j = get_radio w j)
    /\ air w' = air w.
Proof.
  intros me d w buf b noack Hq Hwf Hce Hnorm s. subst s.
  destruct (write_put me d buf b noack true w _ (clock w) Hq (wf_get_radio w me Hwf) (idle_ce_low _ Hce) Hnorm) as (c' & E).
  rewrite (put_init me w Hq) in E.
  destruct (tx_full (get_radio w me)); eexists _, (put me w _ c');
    (split; [exact E|]; split; [apply get_put, Hq|]; split; [|reflexivity]);
    intros j Hj; apply (get_set_radio_other w me j); congruence.
Qed.
Print Assumptions C01_write_accepts_iff_room.
