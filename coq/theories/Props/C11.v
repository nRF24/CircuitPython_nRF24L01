(* Props/C11.v -- property C11: header and fragment wire formats are stable and
   TMRh20-compatible.  Statements; each is closed by `exact`, or in a few lines from
   the definitions and the lemmas of Net/HeaderFacts.v. *)
From Coq Require Import ZArith NArith List Bool Lia.
From NRF Require Import Net.Header Net.HeaderFacts.
Import ListNotations.
Local Open Scope Z_scope.

(* a header always serialises to exactly 8 bytes (each < 256) *)
Theorem C11_pack_length : forall h b,
  hdr_pack h = Some b -> length b = 8%nat /\ Forall (fun x => (x < 256)%N) b.
Proof. exact hdr_pack_length. Qed.
Print Assumptions C11_pack_length.

(* ... origin, destination (12 bits) and frame id (16 bits) as little-endian 16-bit
   values -- low byte v mod 256, then high byte (v/256) mod 256 -- then the type byte
   and the reserved byte; for EVERY integer field value *)
Theorem C11_pack_layout : forall h t,
  type_code (message_type h) = Some t ->
  option_map (map Z.of_N) (hdr_pack h) =
  Some [ Z.land (from_node h) 4095 mod 256; (Z.land (from_node h) 4095 / 256) mod 256;
         Z.land (to_node h) 4095 mod 256; (Z.land (to_node h) 4095 / 256) mod 256;
         Z.land (frame_id h) 65535 mod 256; (Z.land (frame_id h) 65535 / 256) mod 256;
         t mod 256; reserved h mod 256 ].
Proof.
  intros h t Ht. unfold hdr_pack. rewrite Ht. cbn [option_map].
  rewrite !map_app, !le16_spec. cbn [map app]. rewrite !byte_spec. reflexivity.
Qed.
Print Assumptions C11_pack_layout.

(* parsing those bytes (followed by anything) yields the same field values, masked to
   their wire width; unchanged when in range *)
Theorem C11_unpack_pack : forall h b rest,
  hdr_pack h = Some b -> hdr_unpack (b ++ rest) = mask_hdr h.
Proof. exact hdr_unpack_pack. Qed.
Print Assumptions C11_unpack_pack.

Theorem C11_in_range_unchanged : forall h t,
  0 <= from_node h < 4096 -> 0 <= to_node h < 4096 -> 0 <= frame_id h < 65536 ->
  message_type h = IntT t -> 0 <= t < 256 -> 0 <= reserved h < 256 ->
  mask_hdr h = Some h.
Proof. exact mask_hdr_id. Qed.
Print Assumptions C11_in_range_unchanged.

(* buffers shorter than 8 bytes are refused, all others are accepted *)
Theorem C11_short_refused : forall b, hdr_unpack b = None <-> (length b < 8)%nat.
Proof. exact hdr_unpack_short. Qed.
Print Assumptions C11_short_refused.

Theorem C11_frame_short_refused : forall b, frame_unpack b = None <-> (length b < 8)%nat.
Proof.
  intros b. rewrite <- hdr_unpack_short. unfold frame_unpack.
  destruct (hdr_unpack b); split; (discriminate || reflexivity).
Qed.
Print Assumptions C11_frame_short_refused.

(* a frame is its header followed by the unmodified message *)
Theorem C11_frame_roundtrip : forall f b,
  frame_pack f = Some b ->
  frame_unpack b = option_map (fun h => mkFrame h (msg f)) (mask_hdr (hdr f))
  /\ length b = frame_len f.
Proof. exact frame_unpack_pack. Qed.
Print Assumptions C11_frame_roundtrip.

(* the frame id counter wraps at 2^16 *)
Theorem C11_id_wraps : forall c, 0 <= c < 65536 ->
  fst (next_id c) = c /\ snd (next_id c) = (c + 1) mod 65536 /\ 0 <= snd (next_id c) < 65536.
Proof.
  intros c H. cbn. change 65535 with (Z.ones 16).
  rewrite Z.land_ones by lia.
  repeat split; try apply Z.mod_pos_bound; lia.
Qed.
Print Assumptions C11_id_wraps.

(* a message longer than 24 bytes is emitted as ceil(n/24) frames ... *)
Theorem C11_fragment_count : forall h t m,
  length (fragment_frames h t m) = frag_total (length m)
  /\ frag_total (length m) = ((length m + 23) / 24)%nat.
Proof. intros h t m. split; [exact (fragment_count h t m)|exact (frag_total_ceil (length m))]. Qed.
Print Assumptions C11_fragment_count.

(* ... sharing one frame id (and origin, destination), typed first / more / last, with
   a descending counter total, total-1, ..., 2 in the reserved byte and the original
   type in the last fragment's reserved byte *)
Theorem C11_fragment_headers : forall h t m i,
  (24 < length m)%nat -> (i < frag_total (length m))%nat ->
  nth_error (fragment_frames h t m) i = Some (nth_frag h t m i) /\
  let total := frag_total (length m) in
  let fh := hdr (nth_frag h t m i) in
  from_node fh = from_node h /\ to_node fh = to_node h /\ frame_id fh = frame_id h
  /\ (i = 0%nat -> message_type fh = IntT MSG_FRAG_FIRST /\ reserved fh = Z.of_nat total)
  /\ ((0 < i < total - 1)%nat -> message_type fh = IntT MSG_FRAG_MORE /\ reserved fh = Z.of_nat (total - i))
  /\ (i = (total - 1)%nat -> message_type fh = IntT MSG_FRAG_LAST /\ reserved fh = t).
Proof.
  intros h t m i Hn Hi. split; [exact (fragment_nth h t m i Hi)|].
  pose proof (frag_total_bounds (length m)). cbn [nth_frag hdr].
  destruct (Nat.eq_dec i 0) as [->|]; [|destruct (Nat.eq_dec i (frag_total (length m) - 1)) as [->|]].
  - rewrite frag_header_first by lia. repeat split; intros; (reflexivity || lia).
  - rewrite frag_header_last. repeat split; intros; (reflexivity || lia).
  - rewrite frag_header_more by lia. repeat split; intros; (reflexivity || lia).
Qed.
Print Assumptions C11_fragment_headers.

(* every fragment carries 1..24 message bytes: at most 32 bytes on air *)
Theorem C11_fragment_size : forall h t m i b,
  (24 < length m)%nat -> (i < frag_total (length m))%nat ->
  frame_pack (nth_frag h t m i) = Some b -> (9 <= length b <= 32)%nat.
Proof. intros h t m i b _. exact (fragment_frame_size h t m i b). Qed.
Print Assumptions C11_fragment_size.

(* the message slices, in order, are the original message *)
Theorem C11_fragments_concat : forall h t m, (24 < length m)%nat ->
  concat (map msg (fragment_frames h t m)) = m.
Proof. intros h t m _. exact (fragments_concat h t m). Qed.
Print Assumptions C11_fragments_concat.

(* a TMRh20-style receiver (first: start cache; more: id and counter check; last:
   counter must be 2, type := reserved byte) reassembles exactly the original message,
   for every message of 25 .. 24*255 bytes *)
Theorem C11_tmrh20_reassembles : forall h t m,
  (24 < length m)%nat -> (length m <= 24 * 255)%nat ->
  tm_run None (fragment_frames h t m) = [(from_node h, t, m)].
Proof. intros h t m Hn _. exact (tm_reassembles h t m Hn). Qed.
Print Assumptions C11_tmrh20_reassembles.
