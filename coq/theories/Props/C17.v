(* Props/C17.v -- property C17 (mesh joins yield distinct working addresses; lookups give the documented codes).
   What is proved is the sequential core the property rests on: the master's table (C16) and its
   lookups.  The concurrent clauses (joins of 1..12 nodes under arbitrary interleavings, delivery of
   messages sent to an ID) are NOT theorems: the node model is sequential; they are decided by the
   concurrent runs whose every node is replayed on the model (corr/c17.py, Net/Replay.v). *)
From Coq Require Import ZArith NArith List Bool.
From NRF Require Import Net.Mesh Net.DhcpFacts.
Import ListNotations.
Local Open Scope Z_scope.

(* whatever requests, releases and loads the master has served, two IDs never hold one address (that a lease is a
   valid child address of the node asked through is C16_lease_is_a_free_valid_child) *)
Theorem C17_leases_are_distinct : forall evs, Inj (fold_left table_step evs []).
Proof. intro evs. exact (inj_history evs [] inj_nil). Qed.
Print Assumptions C17_leases_are_distinct.

(* lookup_address()/lookup_node_id() on the master return the current mapping, and -2 exactly when the
   ID / address is not assigned *)
Theorem C17_lookup_address : forall d id,
  Inj d -> (forall a, In (id, a) d -> get_address d id true = a)
           /\ ((forall a, ~ In (id, a) d) -> get_address d id true = -2).
Proof.
  intros d id [Hn _]. unfold get_address. generalize (dict_get_spec d id).
  destruct (dict_get d id) as [a0|]; intro G; split.
  - intros a Hin. exact (nodup_keys_fun d id a0 a Hn G Hin).
  - intro Hno. destruct (Hno a0 G).
  - intros a Hin. destruct (G a Hin).
  - reflexivity.
Qed.
Print Assumptions C17_lookup_address.
Theorem C17_lookup_node_id : forall d a,
  Inj d -> (forall id, In (id, a) d -> get_address d a false = id)
           /\ ((forall id, ~ In (id, a) d) -> get_address d a false = -2).
Proof.
  intros d a [_ Hi]. unfold get_address. generalize (find_val_spec d a).
  destruct (dict_find_val d a) as [k|]; intro F; split.
  - intros id Hin. exact (Hi _ _ _ F Hin).
  - intro Hno. destruct (Hno k F).
  - intros id Hin. destruct (F id Hin).
  - reflexivity.
Qed.
Print Assumptions C17_lookup_node_id.

(* a release frees the lease (the other leases stay: C16_release_keeps_others) *)
Theorem C17_release_frees_the_lease : forall d a, Inj d -> forall k, ~ In (k, a) (snd (release_addr d a)).
Proof. exact release_frees. Qed.
Print Assumptions C17_release_frees_the_lease.

Example C17_example :
  let d := fold_left table_step [Request 7 0 true; Request 9 0 true; Request 3 5 false] [] in
  (get_address d 9 true, get_address d 37 false, get_address d 8 true, get_address d 3 false) = (4, 3, -2, -2).
Proof. vm_compute. reflexivity. Qed.
