(* Props/C03.v -- property C03 (configuration attributes follow the documented encodings).
   PARTIAL, see DESIGN.md section 7: proved are (1) for every configuration method, that it does to radio
   `me` of ANY world exactly what it does to a bare configuration record, leaving every other radio's
   configuration alone (simulation lemmas; a selection is restated here, all ~50 are in Drv/RF24SimOps.v),
   and (2) the documented encodings of `channel`, `address_length`, `set_auto_retries`, `data_rate`, `crc`,
   `pa_level`, `arc` and `ard` as worked instances of the per-setter refinement
   (`listen`/`open_tx_pipe` are in Props/C08.v, `__enter__`/`__exit__` in Props/C09.v).  The encodings of the
   remaining setters are decided by the correspondence run and its documented-encoding checker. *)
From Coq Require Import ZArith NArith List Bool Lia.
From NRF Require Import Base.Sweep Base.Bits Env.Radio Env.RadioFacts Env.World Env.WorldFacts Env.CfgFacts Drv.RF24 Drv.RF24Sim
     Drv.RF24SimOps Drv.CfgEval Drv.SetterFacts.
Import ListNotations.
Local Open Scope Z_scope.

Theorem C03_status_is_pre_command : forall r cmd data,
  hd 0%N (snd (spi r (cmd :: data))) = status r.
Proof. exact spi_status_first. Qed.
Print Assumptions C03_status_is_pre_command.

(* channel = ch with 0 <= ch <= 125: RF_CH of this radio becomes ch, every other register, address and the CE line
   keep their values, no other radio's configuration changes -- in every world *)
Theorem C03_channel_encoding : forall me ch d w,
  (me < length (radios w))%nat -> WfC (cview (get_radio w me)) -> 0 <= ch <= 125 ->
  exists d1 w1, set_channel (WB me) ch d w = (Ok tt, d1, w1)
    /\ cview (get_radio w1 me) = cset (cview (get_radio w me)) 5 (Z.to_N ch)
    /\ (forall j, j <> me -> cview (get_radio w1 j) = cview (get_radio w j)).
Proof. intros. eapply sim_run_ok; eauto using sim_set_channel, set_channel_c. Qed.
Print Assumptions C03_channel_encoding.

(* ... and outside that range ValueError is raised and no configuration of any radio changes *)
Theorem C03_channel_rejects : forall me ch d w,
  (me < length (radios w))%nat -> ~ (0 <= ch <= 125) ->
  exists d1 w1, set_channel (WB me) ch d w = (Exn ValueError, d1, w1)
    /\ (forall j, cview (get_radio w1 j) = cview (get_radio w j)).
Proof. intros. eapply sim_run_exn; eauto using sim_set_channel, set_channel_rejects. Qed.
Print Assumptions C03_channel_rejects.

(* address_length = len with 3 <= len <= 5: SETUP_AW := len - 2, nothing else, in every world *)
Theorem C03_address_length_encoding : forall me len d w,
  (me < length (radios w))%nat -> 3 <= len <= 5 ->
  exists d1 w1, set_address_length (WB me) len d w = (Ok tt, d1, w1)
    /\ cview (get_radio w1 me) = cset (cview (get_radio w me)) 3 (Z.to_N (len - 2))
    /\ (forall j, j <> me -> cview (get_radio w1 j) = cview (get_radio w j)).
Proof. intros. eapply sim_run_ok; eauto using sim_set_address_length, set_address_length_c. Qed.
Print Assumptions C03_address_length_encoding.

(* set_auto_retries(delay, count) for ANY integers: SETUP_RETR := 16 * ((clamp(delay, 250, 4000) - 250) / 250)
   + clamp(count, 0, 15) -- the documented clamping and the ARD/ARC fields -- nothing else, in every world *)
Theorem C03_auto_retries_encoding : forall me delay count d w,
  (me < length (radios w))%nat ->
  exists d1 w1, set_auto_retries (WB me) delay count d w = (Ok tt, d1, w1)
    /\ cview (get_radio w1 me) = cset (cview (get_radio w me)) 4 (Z.to_N (retr_value delay count))
    /\ (forall j, j <> me -> cview (get_radio w1 j) = cview (get_radio w j)).
Proof. intros. eapply sim_run_ok; eauto using sim_set_auto_retries, set_auto_retries_c. Qed.
Print Assumptions C03_auto_retries_encoding.

(* data_rate = 1 | 2 | 250 (Mbps / kbps): RF_SETUP := rate_value old speed, whose bits 5 and 3 (RF_DR_LOW, RF_DR_HIGH,
   mask 40) are the documented 00 | 01 | 10 and whose other bits (mask 151: PA level, LNA, PLL_LOCK, CONT_WAVE) are
   the old ones -- for every previous register content; any other speed: ValueError with nothing written anywhere *)
Theorem C03_data_rate_encoding : forall me speed d w,
  (me < length (radios w))%nat -> (speed = 1 \/ speed = 2 \/ speed = 250) ->
  exists d1 w1, set_data_rate (WB me) speed d w = (Ok tt, d1, w1)
    /\ cview (get_radio w1 me) = cset (cview (get_radio w me)) 6 (rate_value (creg (cview (get_radio w me)) 6) speed)
    /\ (forall j, j <> me -> cview (get_radio w1 j) = cview (get_radio w j)).
Proof. intros. eapply sim_run_ok; eauto using sim_set_data_rate, set_data_rate_c. Qed.
Print Assumptions C03_data_rate_encoding.

Theorem C03_data_rate_bits : forall n speed, (n < 256)%N -> (speed = 1 \/ speed = 2 \/ speed = 250) ->
  N.land (rate_value n speed) 40 = Z.to_N (rate_bits speed) /\ N.land (rate_value n speed) 151 = N.land n 151.
Proof.
  intros n speed Hn Hs. rewrite <- !N.eqb_eq, <- andb_true_iff. revert n Hn.
  destruct Hs as [->|[->| ->]]; apply (below_N _ 256); vm_compute; reflexivity.
Qed.
Print Assumptions C03_data_rate_bits.

(* ... and the data_rate getter's formula, applied to that register content, gives the speed back *)
Theorem C03_data_rate_getter : forall n speed, (n < 256)%N -> (speed = 1 \/ speed = 2 \/ speed = 250) ->
  (let b := Z.land (Z.of_N (rate_value n speed)) 40 in if b =? 0 then 1 else if b =? 8 then 2 else 250) = speed.
Proof.
  intros n speed Hn Hs. rewrite (of_N_land _ 40), (proj1 (C03_data_rate_bits n speed Hn Hs)).
  destruct Hs as [->|[->| ->]]; reflexivity.
Qed.
Print Assumptions C03_data_rate_getter.

Theorem C03_data_rate_rejects : forall me speed d w,
  (me < length (radios w))%nat -> ~ (speed = 1 \/ speed = 2 \/ speed = 250) ->
  exists d1 w1, set_data_rate (WB me) speed d w = (Exn ValueError, d1, w1)
    /\ (forall j, cview (get_radio w1 j) = cview (get_radio w j)).
Proof. intros. eapply sim_run_exn; eauto using sim_set_data_rate, set_data_rate_rejects. Qed.
Print Assumptions C03_data_rate_rejects.

(* crc = length, ANY integer (clamped to 0..2): CONFIG := crc_value cached length, whose bits 3,2 (EN_CRC, CRCO, mask 12)
   are 00 | 10 | 11 and whose other bits are those of the object's cached CONFIG byte *)
Theorem C03_crc_encoding : forall me length d w,
  (me < List.length (radios w))%nat -> 0 <= d_config d <= 255 ->
  exists d1 w1, set_crc (WB me) length d w = (Ok tt, d1, w1)
    /\ cview (get_radio w1 me) = cset (cview (get_radio w me)) 0 (crc_value (d_config d) length)
    /\ (forall j, j <> me -> cview (get_radio w1 j) = cview (get_radio w j)).
Proof. intros. eapply sim_run_ok; eauto using sim_set_crc, set_crc_c. Qed.
Print Assumptions C03_crc_encoding.

Theorem C03_crc_bits : forall cfg0 length, 0 <= cfg0 <= 255 ->
  0 <= Z.lor (Z.land cfg0 115) (crc_bits length) <= 255
  /\ N.land (crc_value cfg0 length) 12 = Z.to_N (crc_bits length)
  /\ N.land (crc_value cfg0 length) 115 = N.land (Z.to_N cfg0) 115.
Proof.
  intros cfg0 length Hc. unfold crc_value. rewrite <- !N.eqb_eq, <- !Z.leb_le, <- !andb_true_iff.
  assert (Hc' : 0 <= cfg0 < Z.of_N 256) by lia. clear Hc. revert cfg0 Hc'.
  destruct (crc_bits_in length) as [->|[->| ->]]; apply (below_Z _ 256); vm_compute; reflexivity.
Qed.
Print Assumptions C03_crc_bits.

(* pa_level = power | (power, lna), power in {-18,-12,-6,0}: RF_SETUP := pa_value cached power lna, whose bits 2,1
   (RF_PWR, mask 6) are 00 | 01 | 10 | 11 = (3 - power / -6), whose bit 0 (LNA_HCURR) is lna (True when only the power
   is given) and whose bits 7..3 are those of the object's cached RF_SETUP byte (bit 6 is not writable);
   any other power in an accepted argument form: ValueError with nothing written anywhere *)
Theorem C03_pa_level_encoding : forall me power p lna d w,
  (me < length (radios w))%nat -> pa_arg power p lna -> 0 <= d_rf_setup d <= 255 -> pa_ok p ->
  exists d1 w1, set_pa_level (WB me) power d w = (Ok tt, d1, w1)
    /\ cview (get_radio w1 me) = cset (cview (get_radio w me)) 6 (pa_value (d_rf_setup d) p lna)
    /\ (forall j, j <> me -> cview (get_radio w1 j) = cview (get_radio w j)).
Proof. intros. eapply sim_run_ok; eauto using sim_set_pa_level, set_pa_level_c. Qed.
Print Assumptions C03_pa_level_encoding.

Theorem C03_pa_level_bits : forall cached p lna, 0 <= cached <= 255 -> pa_ok p ->
  0 <= Z.lor (Z.lor (Z.land cached 248) (pa_bits p)) (zb lna) <= 255
  /\ N.land (pa_value cached p lna) 6 = Z.to_N (pa_bits p)
  /\ N.land (pa_value cached p lna) 1 = Z.to_N (zb lna)
  /\ N.land (pa_value cached p lna) 248 = N.land (Z.to_N cached) 184.
Proof.
  intros cached p lna Hc Hp. unfold pa_value. rewrite <- !N.eqb_eq, <- !Z.leb_le, <- !andb_true_iff.
  assert (Hc' : 0 <= cached < Z.of_N 256) by lia. clear Hc. revert cached Hc'.
  destruct (pa_bits_in p Hp) as [->|[->|[->| ->]]], lna; apply (below_Z _ 256); vm_compute; reflexivity.
Qed.
Print Assumptions C03_pa_level_bits.

Theorem C03_pa_level_rejects : forall me power p lna d w,
  (me < length (radios w))%nat -> pa_arg power p lna -> ~ pa_ok p ->
  exists d1 w1, set_pa_level (WB me) power d w = (Exn ValueError, d1, w1)
    /\ (forall j, cview (get_radio w1 j) = cview (get_radio w j)).
Proof. intros. eapply sim_run_exn; eauto using sim_set_pa_level, set_pa_level_rejects. Qed.
Print Assumptions C03_pa_level_rejects.

(* ... and the formulas of the pa_level / is_lna_enabled getters, applied to that register content, give the power
   and the LNA flag back *)
Theorem C03_pa_level_getter : forall cached p lna, 0 <= cached <= 255 -> pa_ok p ->
  (3 - Z.shiftr (Z.land (Z.of_N (pa_value cached p lna)) 6) 1) * -6 = p
  /\ truthy (Z.land (Z.of_N (pa_value cached p lna)) 1) = lna.
Proof.
  intros cached p lna Hc Hp. destruct (C03_pa_level_bits cached p lna Hc Hp) as (_ & Hb & Hl & _).
  rewrite (of_N_land _ 6), (of_N_land _ 1), Hb, Hl.
  destruct Hp as [->|[->|[->| ->]]], lna; split; reflexivity.
Qed.
Print Assumptions C03_pa_level_getter.

(* the premises are satisfiable: pa_level = (-12, False) on a cached RF_SETUP of 0x27 gives 0x22 *)
Example C03_pa_level_nonvacuous :
  pa_arg (PList [PInt (-12); PBool false]) (-12) false /\ pa_ok (-12) /\ pa_value 39 (-12) false = 34%N.
Proof. split; [right; left; exists []; reflexivity|]. split; [right; left; reflexivity|reflexivity]. Qed.

(* arc = count, ANY integer (clamped to 0..15): SETUP_RETR := arc_value cached count, whose low nibble is the clamped
   count and whose high nibble (ARD) is the cached one;  ard = delta, ANY integer (clamped to 250..4000 us):
   SETUP_RETR := ard_value cached delta, whose high nibble is (delta - 250) / 250 and whose low nibble (ARC) is the
   cached one *)
Theorem C03_arc_encoding : forall me count d w,
  (me < length (radios w))%nat -> 0 <= d_retry_setup d <= 255 ->
  exists d1 w1, set_arc (WB me) count d w = (Ok tt, d1, w1)
    /\ cview (get_radio w1 me) = cset (cview (get_radio w me)) 4 (Z.to_N (arc_value (d_retry_setup d) count))
    /\ (forall j, j <> me -> cview (get_radio w1 j) = cview (get_radio w j)).
Proof. intros. eapply sim_run_ok; eauto using sim_set_arc, set_arc_c. Qed.
Print Assumptions C03_arc_encoding.

Theorem C03_arc_fields : forall cached count, 0 <= cached <= 255 ->
  arc_value cached count mod 16 = Z.max 0 (Z.min count 15) /\ arc_value cached count / 16 = cached / 16.
Proof.
  intros cached count _. split; apply nibbles; lia.
Qed.
Print Assumptions C03_arc_fields.

Theorem C03_ard_encoding : forall me delta d w,
  (me < length (radios w))%nat -> 0 <= d_retry_setup d <= 255 ->
  exists d1 w1, set_ard (WB me) delta d w = (Ok tt, d1, w1)
    /\ cview (get_radio w1 me) = cset (cview (get_radio w me)) 4 (Z.to_N (ard_value (d_retry_setup d) delta))
    /\ (forall j, j <> me -> cview (get_radio w1 j) = cview (get_radio w j)).
Proof. intros. eapply sim_run_ok; eauto using sim_set_ard, set_ard_c. Qed.
Print Assumptions C03_ard_encoding.

Theorem C03_ard_fields : forall cached delta,
  ard_value cached delta / 16 = (Z.max 250 (Z.min delta 4000) - 250) / 250 /\ ard_value cached delta mod 16 = cached mod 16.
Proof.
  intros cached delta. apply nibbles, Z.mod_pos_bound. reflexivity.
Qed.
Print Assumptions C03_ard_fields.

(* simulation: same result, same cached attributes (up to the status byte), same configuration of radio `me`,
   every other radio's configuration untouched -- for arbitrary arguments, valid or not *)
Theorem C03_sim_setters : forall me,
  (forall v, sim me (set_data_rate (WB me) v) (set_data_rate CB v)) /\
  (forall v, sim me (set_crc (WB me) v) (set_crc CB v)) /\
  (forall v, sim me (set_pa_level (WB me) v) (set_pa_level CB v)) /\
  (forall v, sim me (set_arc (WB me) v) (set_arc CB v)) /\
  (forall v, sim me (set_ard (WB me) v) (set_ard CB v)) /\
  (forall v, sim me (set_address_length (WB me) v) (set_address_length CB v)) /\
  (forall v, sim me (set_auto_ack_attr (WB me) v) (set_auto_ack_attr CB v)) /\
  (forall v, sim me (set_dynamic_payloads_attr (WB me) v) (set_dynamic_payloads_attr CB v)) /\
  (forall v, sim me (set_payload_length_attr (WB me) v) (set_payload_length_attr CB v)) /\
  (forall v, sim me (set_ack (WB me) v) (set_ack CB v)) /\
  (forall v, sim me (set_power (WB me) v) (set_power CB v)) /\
  (forall p a, sim me (open_rx_pipe (WB me) p a) (open_rx_pipe CB p a)) /\
  (forall p, sim me (close_rx_pipe (WB me) p) (close_rx_pipe CB p)) /\
  (forall a, sim me (open_tx_pipe (WB me) a) (open_tx_pipe CB a)) /\
  (forall b, sim me (set_listen (WB me) b) (set_listen CB b)).
Proof.
  intro me.
  exact (conj (sim_set_data_rate me) (conj (sim_set_crc me) (conj (sim_set_pa_level me) (conj (sim_set_arc me)
        (conj (sim_set_ard me) (conj (sim_set_address_length me) (conj (sim_set_auto_ack_attr me)
        (conj (sim_set_dynamic_payloads_attr me) (conj (sim_set_payload_length_attr me) (conj (sim_set_ack me)
        (conj (sim_set_power me) (conj (sim_open_rx_pipe me) (conj (sim_close_rx_pipe me) (conj (sim_open_tx_pipe me)
        (sim_set_listen me))))))))))))))).
Qed.
Print Assumptions C03_sim_setters.

Theorem C03_sim_getters : forall me,
  sim me (get_channel (WB me)) (get_channel CB) /\ sim me (get_data_rate (WB me)) (get_data_rate CB) /\
  sim me (get_crc (WB me)) (get_crc CB) /\ sim me (get_pa_level (WB me)) (get_pa_level CB) /\
  sim me (get_arc (WB me)) (get_arc CB) /\ sim me (get_ard (WB me)) (get_ard CB) /\
  sim me (get_address_length (WB me)) (get_address_length CB) /\ sim me (get_power (WB me)) (get_power CB) /\
  sim me (get_listen (WB me)) (get_listen CB) /\ sim me (get_ack (WB me)) (get_ack CB).
Proof.
  intro me.
  exact (conj (sim_get_channel me) (conj (sim_get_data_rate me) (conj (sim_get_crc me) (conj (sim_get_pa_level me)
        (conj (sim_get_arc me) (conj (sim_get_ard me) (conj (sim_get_address_length me) (conj (sim_get_power me)
        (conj (sim_get_listen me) (sim_get_ack me)))))))))).
Qed.
Print Assumptions C03_sim_getters.
