(* Props/C10.v -- property C10 (status and FIFO accessors report the radio's actual state).
   Each accessor is run on the lemmas of Drv/AccessFacts.v (one transfer, update(), STATUS decoded).
   Proved for the accessors that decode STATUS / FIFO_STATUS (update, available, pipe, tx_full,
   irq_dr/irq_ds/irq_df, fifo); any()/read()/clear_status_flags()/flush_*()/last_tx_arc are decided by the
   correspondence run and its checker (corr/c10.py). *)
From Coq Require Import ZArith NArith List Bool Lia.
From NRF Require Import Env.Radio Env.World Env.RadioFacts Env.WfFacts Drv.RF24 Drv.AccessFacts.
Import ListNotations.
Local Open Scope N_scope.

(* every SPI transfer shifts out STATUS as it was BEFORE the command took effect *)
Theorem C10_status_is_pre_command : forall r cmd data, hd 0 (snd (spi r (cmd :: data))) = status r.
Proof. exact spi_status_first. Qed.
Print Assumptions C10_status_is_pre_command.

(* Every world reachable from power-up by ANY sequence of SPI transfers, CE changes, clock readings and sleeps of
   ANY radios -- i.e. after any traffic history with any loss pattern -- is well formed: only the three interrupt
   flags are latched and every queued payload sits on a pipe 0..5. *)
Theorem C10_reachable_worlds_are_well_formed : forall plus oracle ops,
  AllWf (fold_left bus_step ops (new_world plus oracle)).
Proof. intros plus o ops. exact (wf_reachable ops _ (wf_new_world plus o)). Qed.
Print Assumptions C10_reachable_worlds_are_well_formed.

(* available() is True exactly when the RX FIFO of the driver's radio holds a payload *)
Theorem C10_available : forall me d w, WfR (get_radio w me) ->
  exists d' w', available (WB me) d w = (Ok (negb (match rx_fifo (get_radio w me) with [] => true | _ => false end)), d', w').
Proof.
  intros me d w W. destruct (update_spec me d w) as (d' & w' & E & S). exists d', w'.
  unfold available, bind at 1. rewrite E. unfold bind, get, ret, st_pipe. rewrite S, (status_pipe_lt6 _ W). reflexivity.
Qed.
Print Assumptions C10_available.

(* after update(): pipe = pipe of the head of the RX FIFO (None when empty), tx_full = TX FIFO holds 3 entries,
   irq_dr / irq_ds / irq_df = the latched RX_DR / TX_DS / MAX_RT flags of the radio *)
Theorem C10_status_attributes : forall me d w, WfR (get_radio w me) ->
  exists d' w', update (WB me) d w = (Ok true, d', w') /\
    fst (fst (pipe_attr (bus := world) d' w')) = Ok (match rx_fifo (get_radio w me) with [] => None | (p, _) :: _ => Some p end) /\
    fst (fst (tx_full_attr (bus := world) d' w')) = Ok (tx_full (get_radio w me)) /\
    fst (fst (irq_dr (bus := world) d' w')) = Ok (N.testbit (flags (get_radio w me)) 6) /\
    fst (fst (irq_ds (bus := world) d' w')) = Ok (N.testbit (flags (get_radio w me)) 5) /\
    fst (fst (irq_df (bus := world) d' w')) = Ok (N.testbit (flags (get_radio w me)) 4).
Proof.
  intros me d w W. destruct (update_spec me d w) as (d' & w' & E & S). exists d', w'. split; [exact E|].
  destruct (status_decode _ W) as (D1 & _ & _ & B6 & B5 & B4 & B0).
  unfold pipe_attr, tx_full_attr, irq_dr, irq_ds, irq_df, bind, get, ret, st_pipe, st_bit. cbn [fst]. rewrite S.
  rewrite B6, B5, B4, B0, D1. repeat split.
  pose proof (rx_p_no_cases _ W) as L. destruct (rx_fifo (get_radio w me)) as [|[p x] t].
  - rewrite L. reflexivity.
  - destruct L as [-> L]. rewrite (proj2 (N.leb_le p 5)) by lia. reflexivity.
Qed.
Print Assumptions C10_status_attributes.

(* fifo(about_tx) = 2*[3 entries] + [empty] of the selected FIFO *)
Theorem C10_fifo : forall me d w about_tx,
  exists d' w', fifo (WB me) about_tx None d w =
    (Ok (occ (if about_tx then length (tx_fifo (get_radio w me)) else length (rx_fifo (get_radio w me)))), d', w').
Proof.
  intros me d w about_tx. destruct (xfer_w me [23; 0] d w) as (d' & w' & E & _). exists d', w'.
  unfold fifo, reg_read, bind. change (as_byte 23 d w) with (Ok 23, d, w). cbv iota. rewrite E.
  unfold ret. f_equal. f_equal. f_equal. change (nth 1 _ 0) with (fifo_status (get_radio w me)).
  unfold fifo_status, tx_full, occ.
  (* four bits, full and empty of each FIFO: mask and shift pick one pair whatever the other pair is *)
  destruct about_tx, (3 <=? N.of_nat (length (tx_fifo _))), (3 <=? N.of_nat (length (rx_fifo _))),
    (tx_fifo _), (rx_fifo _); reflexivity.
Qed.
Print Assumptions C10_fifo.
