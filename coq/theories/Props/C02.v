(* Props/C02.v -- property C02 (send() tells the truth about delivery).  The theorems, proved from the lemmas of
   Drv/SendFacts.v and Env/QuietFacts.v.
   PARTIAL, see DESIGN.md section 7: proved is the core case -- send(buf, ask_no_ack, force_retry=0,
   send_only=True) of a transmitter whose TX FIFO is empty, in any world whose other radios do not transmit.
   force_retry > 0, resend(), ACK-payload results (send_only=False), list arguments, a non-empty TX FIFO and the
   time bound are decided by the correspondence run with the loss oracle and its fate checker (corr/c02.py). *)
From Coq Require Import ZArith NArith List Bool Lia.
From NRF Require Import Env.Radio Env.World Env.RadioFacts Env.WorldFacts Env.WfFacts Env.QuietFacts
     Drv.RF24 Drv.RF24Sim Drv.AccessFacts Drv.SendFacts.
Import ListNotations.
Local Open Scope N_scope.

Theorem C02_status_is_pre_command : forall r cmd data, hd 0 (snd (spi r (cmd :: data))) = status r.
Proof. exact spi_status_first. Qed.
Print Assumptions C02_status_is_pre_command.

(* In TX mode (PWR_UP set, PRIM_RX clear) with an empty TX FIFO and no stale TX_FULL/MAX_RT in the cached status,
   in ANY well-formed world (any number of radios, any configuration, FIFO contents and loss oracle) whose other
   radios are receiving, in standby or powered down: send() terminates with one status poll and returns True if
   and only if the radio completed the transmission -- `exchange_ok`: acknowledged by a matching listening peer
   within 1+ARC attempts under the oracle's loss pattern, or sent once when no acknowledgement is requested.
   The world in which the transmission takes place differs from the initial one only in radio `me`: flags cleared,
   exactly this (normalised) payload queued, CE high. *)
Theorem C02_send_truth : forall me d w buf b noack k,
  Q me w -> AllWf w ->
  pwr_up (get_radio w me) = true -> prim_rx (get_radio w me) = false ->
  tx_fifo (get_radio w me) = [] ->
  st_bit d 16 = false -> st_bit d 1 = false ->
  norm_payload d buf = Ok b ->
  let s := get_radio w me in
  let armed := with_ce (loaded (with_flags (with_ce s false) 0) noack b) true in
  exists d' w' wpre,
    radios wpre = set_nth_radio (radios w) me armed /\ oracle wpre = oracle w /\
    send (WB me) buf noack 0 true (S k) d w = (Ok (SBool (exchange_ok wpre me)), d', w') /\
    radios w' = radios (exchange wpre me).
Proof.
  intros me d w buf b noack k Hq Hwf Hpu Hprx Hfifo H16 H1 Hnorm s armed. fold s in Hpu, Hprx, Hfifo.
  pose proof (wf_get_radio w me Hwf : WfR s) as Ws.
  set (s1 := with_ce s false) in *. set (d2 := upd_in0 (status (with_flags s1 0)) (upd_in0 (status s1) d)).
  pose proof (idle_ce_low s1 eq_refl) as Hi.
  (* self.ce_pin = False; write(): flags cleared, the payload loaded *)
  destruct (runs_ce me false d (can_tx_idle s1 Hi) w (clock w) Hq) as (c1 & E1).
  rewrite (put_init me w Hq : put me w s (clock w) = w) in E1.
  destruct (write_put me d buf b noack false w s1 c1 Hq Ws Hi Hnorm) as (c2 & E2).
  replace (tx_full s1) with false in E2 by (unfold tx_full; change (tx_fifo s1) with (tx_fifo s); rewrite Hfifo; reflexivity).
  (* self.ce_pin = True: the exchange *)
  set (e := mkTx (if noack then TxNoAck else TxNormal) (next_pid s) b).
  destruct (ce_high_put me d2 w (loaded (with_flags s1 0) noack b) c2 e Hq Hwf (wf_no_flags s Ws)) as (E3 & Q3 & C3 & B48 & B32).
  { change (pwr_up s && negb (prim_rx s) && true = true). rewrite Hpu, Hprx. reflexivity. }
  { reflexivity. }
  { change (tx_fifo s ++ [e] = [e]). rewrite Hfifo. reflexivity. }
  rewrite (bind_ok E3) in E2. fold armed in E2, Q3, C3, B48, B32. set (wpre := put me w armed c2) in *.
  (* the polling loop: one update() *)
  assert (B0 : st_bit d2 48 = false).
  { unfold st_bit, d2. cbn [d_in0 upd_in0]. rewrite (status_flags _ 48 (wf_no_flags s1 Ws) eq_refl). reflexivity. }
  destruct (runs_wait_flags me k d2 C3 B0 B48 _ (clock (exchange wpre me)) Q3) as (c3 & E4).
  rewrite (put_init me _ Q3) in E4.
  eexists _, _, wpre. split; [reflexivity|]. split; [reflexivity|]. split.
  - unfold send. rewrite (bind_ok E1). cbn [bind get]. rewrite H16, H1. cbn [bind get ret orb negb andb].
    rewrite (bind_ok E2), (bind_ok E4). cbn [force_retries bind get ret]. rewrite B32.
    destruct (exchange_ok wpre me); [rewrite andb_false_r|]; reflexivity.
  - apply set_nth_radio_id, Q3.
Qed.
Print Assumptions C02_send_truth.

(* what `exchange_ok` means for the transmitter: exactly TX_DS is latched and the payload has left the TX FIFO on
   success; exactly MAX_RT is latched and the payload stays queued (for resend()) on failure; an attempt never
   touches the transmitter's TX FIFO or its TX_DS/MAX_RT flags otherwise *)
Theorem C02_exchange_outcome : forall w si e rest,
  (si < length (radios w))%nat -> tx_fifo (get_radio w si) = e :: rest ->
  let s' := get_radio (exchange w si) si in
  exists s1, TR (get_radio w si) s1 /\
    (if exchange_ok w si
     then flags s' = N.lor (flags s1) 32 /\ tx_fifo s' = tl (tx_fifo s1)
     else flags s' = N.lor (flags s1) 16 /\ tx_fifo s' = tx_fifo s1)
    /\ cview s' = cview (get_radio w si).
Proof. exact exchange_transmitter. Qed.
Print Assumptions C02_exchange_outcome.

(* non-vacuity: a two-radio world straight after power-up in which radio 0 has been put in TX mode meets the
   hypotheses of C02_send_truth; with nobody listening the theorem's send() evaluates to False *)
Definition ex_world : world := set_radio (new_world [true; true] []) 0 (set_sreg (reset_radio true) 0 14).
Example C02_hypotheses_satisfiable :
  Q 0 ex_world /\ AllWf ex_world /\ pwr_up (get_radio ex_world 0) = true /\ prim_rx (get_radio ex_world 0) = false
  /\ tx_fifo (get_radio ex_world 0) = [] /\ st_bit init_drv 16 = false /\ st_bit init_drv 1 = false
  /\ (exists b, norm_payload init_drv [1; 2; 3] = Ok b)
  /\ fst (fst (send (WB 0) [1; 2; 3] false 0 true 1 init_drv ex_world)) = Ok (SBool false).
Proof.
  repeat split; try reflexivity.
  - intros j Hj. destruct j as [|[|j]]; [contradiction|reflexivity|]. unfold get_radio, ex_world. cbn. destruct j; reflexivity.
  - cbn. auto.
  - unfold AllWf, ex_world. cbn [radios set_radio new_world map set_nth_radio].
    repeat constructor; cbn; lia.
  - eexists. vm_compute. reflexivity.
Qed.
