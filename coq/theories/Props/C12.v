(* Props/C12.v -- property C12: the frame queue is a bounded, duplicate-free FIFO of
   private copies.  Statements; each is proved in a few lines from the lemmas of
   Net/QueueFacts.v. *)
From Coq Require Import ZArith NArith List Bool Lia.
From NRF Require Import Net.Header Net.Queue Net.QueueRun Net.QueueFacts.
Import ListNotations.
Local Open Scope Z_scope.

(* enqueue() returns True exactly when there is room (len < max_queue_size) and no
   stored frame has the same (origin, frame id, type) as the masked copy of the frame *)
Theorem C12_enqueue_iff : forall q f c,
  stored_ok q -> copy_frame f = Some c ->
  exists r q', enqueue q f = Some (r, q')
    /\ (r = true <-> (Z.of_nat (qlen q) < qmax q /\ ~ In (hkey (hdr c)) (keys q))).
Proof.
  intros q f c _ Hc.
  destruct (enqueueP q f) as [Hf|Hr Hn|c' Hr Hc' Hin|c' Hr Hc' Hnin]; try congruence;
    eexists _, _; (split; [reflexivity|]); try replace c with c' by congruence.
  - split; [discriminate|lia].
  - split; [discriminate|tauto].
  - tauto.
Qed.
Print Assumptions C12_enqueue_iff.

(* what is stored is the masked copy, appended at the tail; a refused frame leaves the
   queue untouched *)
Theorem C12_enqueue_true : forall q f q',
  stored_ok q -> enqueue q f = Some (true, q') ->
  exists c, copy_frame f = Some c
    /\ Z.of_nat (qlen q) < qmax q
    /\ ~ In (hkey (hdr c)) (keys q)
    /\ q' = mkQ (qmax q) (qframes q ++ [c]).
Proof. intros q f q' _ H. apply enqueue_some in H. inversion H. eauto 7. Qed.
Print Assumptions C12_enqueue_true.

Theorem C12_enqueue_false : forall q f q',
  stored_ok q -> enqueue q f = Some (false, q') ->
  q' = q /\ (qmax q <= Z.of_nat (qlen q)
             \/ exists c, copy_frame f = Some c /\ In (hkey (hdr c)) (keys q)).
Proof. intros q f q' _ H. apply enqueue_some in H. inversion H; eauto. Qed.
Print Assumptions C12_enqueue_false.

(* bounded: max is unchanged by enqueue; a queue within its bound stays within it; a
   queue at or above its bound (max lowered below len) never grows *)
Theorem C12_bounded : forall q f r q',
  stored_ok q -> enqueue q f = Some (r, q') ->
  qmax q' = qmax q /\
  (Z.of_nat (qlen q) <= qmax q -> Z.of_nat (qlen q') <= qmax q') /\
  (qmax q <= Z.of_nat (qlen q) -> q' = q).
Proof.
  intros q f r q' _ H. apply enqueue_some in H. inversion H; auto.
  unfold qlen in *. cbn. rewrite app_length. cbn. repeat split; lia.
Qed.
Print Assumptions C12_bounded.

(* For EVERY history of enqueue / dequeue / peek / len / max_queue_size changes /
   fragmentation toggles (frames of non-fragment type; fragment types are C06's
   subject), starting from either queue class: the copies accepted so far, in
   acceptance order, are exactly the frames handed out by dequeue so far followed by
   the current content (FIFO, each exactly once, with the values they had when
   enqueued), and no two stored frames share (origin, id, type). *)
Theorem C12_fifo_history : forall b ops,
  hist_ok ops ->
  let g := grun (g0 b) ops in
  g_acc g = g_out g ++ qframes (st_base (g_st g)) /\ NoDup (keys (st_base (g_st g))).
Proof.
  intros b ops Hh g. destruct (grun_inv ops (g0 b) Hh (GInv_g0 b)) as [[_ Hn] Ha]. split; assumption.
Qed.
Print Assumptions C12_fifo_history.

(* switching fragmentation moves all frames in order and keeps max_queue_size *)
Theorem C12_toggle : forall s b,
  qframes (st_base (fst (qstep s (QToggle b)))) = qframes (st_base s)
  /\ qmax (st_base (fst (qstep s (QToggle b)))) = qmax (st_base s).
Proof. intros s b. rewrite (st_base_qstep s (QToggle b) I). split; reflexivity. Qed.
Print Assumptions C12_toggle.
