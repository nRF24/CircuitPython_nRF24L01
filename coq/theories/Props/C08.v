(* Props/C08.v -- property C08: RX/TX switching preserves the user's pipe-0 address and
   ACK reception.  Each call is analysed once on a bare configuration (Drv/PipeHist.v); `sim_run`
   (Drv/RF24Sim.v) carries the result to radio `me` of any world.

   PInvW me d w says: the configuration of radio `me` of world w has the right shape (WfC) and byte-sized
   registers (RegsByte, which no proof needs), and the object's cached view of
   CONFIG / EN_AA / EN_RXADDR / RX_ADDR_P0 / TX_ADDR equals the radio, and whenever the
   object remembers a user pipe-0 address (d_pipe0_read_addr = the complete register image
   right after the user's last open_rx_pipe(0, a); None after close_rx_pipe(0) or if never
   opened) pipe 0 is enabled.  (The stronger HInv of Drv/PipeHist.v is established by __enter__,
   C08_invariant_established, and preserved by the calls of the alphabet, C08_any_history.) *)
From Coq Require Import ZArith NArith List Bool.
From NRF Require Import Env.Radio Env.World Env.WorldFacts Env.CfgFacts Drv.RF24 Drv.RF24Sim Drv.RF24SimOps
     Drv.CfgEval Drv.CtxFacts Drv.PipeFacts Drv.PipeHist.
Import ListNotations.
Local Open Scope Z_scope.

(* Whenever the radio enters RX mode: CE is high, PWR_UP and PRIM_RX are set, and pipe 0
   listens on the address the user last opened it with (the complete 5-byte image) -- or is
   closed if the user never opened it or has closed it; TX_ADDR is untouched and no other
   radio's configuration changes.  For every world (any other radios, any traffic). *)
Theorem C08_rx_entry : forall me d w, PInvW me d w ->
  exists d1 w1, set_listen (WB me) true d w = (Ok tt, d1, w1)
    /\ let c1 := cview (get_radio w1 me) in
       c_ce c1 = true
       /\ N.land (creg c1 0) 3 = 3%N
       /\ match d_pipe0_read_addr d with
          | Some img => c_p0 c1 = img /\ N.testbit (creg c1 2) 0 = true
          | None => N.testbit (creg c1 2) 0 = false
          end
       /\ c_tx c1 = c_tx (cview (get_radio w me))
       /\ (forall j, j <> me -> cview (get_radio w1 j) = cview (get_radio w j)).
Proof. exact listen_true_world. Qed.
Print Assumptions C08_rx_entry.

(* Immediately after open_tx_pipe(a) (1..5 bytes; shorter addresses alter the leading
   bytes, as documented): TX_ADDR starts with a; with auto-ack enabled for pipe 0,
   RX_ADDR_P0 equals the COMPLETE TX address, and in TX mode (PRIM_RX clear) pipe 0 is
   enabled -- so the acknowledgement can be received (World.hears_ack).  CE is unchanged. *)
Theorem C08_tx_ack_path : forall me d w a, PInvW me d w -> (1 <= length a <= 5)%nat ->
  exists d1 w1, open_tx_pipe (WB me) a d w = (Ok tt, d1, w1)
    /\ let c := cview (get_radio w me) in
       let c1 := cview (get_radio w1 me) in
       firstn (length a) (c_tx c1) = a
       /\ c_tx c1 = overlay a (c_tx c)
       /\ (N.testbit (creg c 1) 0 = true ->
             c_p0 c1 = c_tx c1
             /\ (N.testbit (creg c 0) 0 = false -> N.testbit (creg c1 2) 0 = true))
       /\ c_ce c1 = c_ce c
       /\ (forall j, j <> me -> cview (get_radio w1 j) = cview (get_radio w j)).
Proof.
  intros me d w a (Hme&Hp&_) Hl.
  destruct (opentx_step d _ a Hp Hl) as (d'&c'&He&(H2&H1&H6&H3)&_).
  destruct (sim_run me _ _ d w (sim_open_tx_pipe me a) Hme _ _ _ He) as [d1 [w1 [E [Hd [Hc [Hf _]]]]]].
  exists d1, w1. split; [exact E|]. rewrite Hc. repeat split; try assumption.
  - apply H3. assumption.
  - apply H3; assumption.
Qed.
Print Assumptions C08_tx_ack_path.

(* The property over HISTORIES ("for any sequence of open_rx_pipe, close_rx_pipe, open_tx_pipe, auto-ack
   changes and listen toggles").  PipeHist.pop is the alphabet: open_rx_pipe(p, a), close_rx_pipe(p) for every pipe 0..5,
   open_tx_pipe(a), listen = b, auto_ack = b (1..5 address bytes: pop_ok).  PipeHist.ghost is the specification's own bookkeeping,
   independent of the driver: the complete RX_ADDR_P0 image right after the user's last open_rx_pipe(0, a), None if never
   opened or closed.  PipeHist.post is what C08 demands of one call: entering RX mode puts CE high, PWR_UP|PRIM_RX, pipe 0
   on the ghost address and enabled (closed if the ghost is None), TX_ADDR untouched; open_tx_pipe programs TX_ADDR and,
   with auto-ack on pipe 0, RX_ADDR_P0 = the complete TX address and (in TX mode) pipe 0 enabled; CE is changed only by
   `listen`.  holdsW says: every call of the sequence returns normally, satisfies post, leaves every other radio's
   configuration alone -- and so on from the state it leaves.  For EVERY sequence, in EVERY world. *)
Theorem C08_any_history : forall me ops g d w,
  (me < length (radios w))%nat -> HInv d (cview (get_radio w me)) -> d_pipe0_read_addr d = g ->
  Forall pop_ok ops -> holdsW me ops g d w.
Proof.
  intros me ops. induction ops as [|o t IH]; intros g d w Hme H Hg Hok; cbn [holdsW]; [exact I|].
  inversion Hok as [|? ? Ho Ht]; subst.
  destruct (step_inv o _ d _ H eq_refl Ho) as (d'&c'&E&HI&Er&P).
  destruct (sim_run me _ _ d w (sim_run_pop me o) Hme _ _ _ E) as (d1&w1&E1&Hd&Hc&Hf&Hme1).
  exists d1, w1. split; [exact E1|]. rewrite Hc. split; [exact P|]. split; [exact Hf|].
  apply IH; try assumption.
  - rewrite Hc. eapply HInv_deq; eassumption.
  - rewrite <- Er. apply (deq_fields _ _ Hd).
Qed.
Print Assumptions C08_any_history.

(* The hypothesis HInv is what entering the object's `with` block establishes, from any radio state, for an object
   whose attributes are well formed (DrvOk) and carry no reserved bits / no half-remembered pipe-0 address (DGood);
   a freshly constructed object is one (init_drv_good). *)
Theorem C08_invariant_established : forall me d w,
  (me < length (radios w))%nat -> WfC (cview (get_radio w me)) -> DrvOk d -> DGood d ->
  exists d1 w1, enter (WB me) d w = (Ok tt, d1, w1)
    /\ (me < length (radios w1))%nat /\ HInv d1 (cview (get_radio w1 me))
    /\ d_pipe0_read_addr d1 = d_pipe0_read_addr d
    /\ (forall j, j <> me -> cview (get_radio w1 j) = cview (get_radio w j)).
Proof.
  intros me d w Hme Hw Hd Hg.
  destruct (enter_establishes d _ Hw Hd Hg) as (d'&c'&E&HI&Er&_).
  destruct (sim_run me _ _ d w (sim_enter me) Hme _ _ _ E) as (d1&w1&E1&Hdq&Hc&Hf&Hme1).
  exists d1, w1. split; [exact E1|]. split; [exact Hme1|]. rewrite Hc. split; [eapply HInv_deq; eassumption|].
  split; [|exact Hf]. rewrite <- Er. apply (deq_fields _ _ Hdq).
Qed.
Print Assumptions C08_invariant_established.

Example C08_fresh_object_qualifies : DrvOk init_drv /\ DGood init_drv.
Proof. exact init_drv_good. Qed.
