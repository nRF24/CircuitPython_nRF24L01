(* FragFacts.v -- reassembly (C06): the vocabulary the property is stated in, what frag_enqueue does per fragment kind,
   and the invariant every arrival keeps: the cache is a proper prefix of ONE sent message. *)
From Coq Require Import ZArith NArith List Bool Lia.
From NRF Require Import Base.Lists Net.Header Net.Queue Net.QueueFacts Net.HeaderFacts.
Import ListNotations.
Local Open Scope Z_scope.

Record message := mkMsg { m_from : Z; m_to : Z; m_id : Z; m_type : Z; m_data : list N }.

Definition wf_msg (m : message) : Prop :=
  0 <= m_from m < 4096 /\ 0 <= m_to m < 4096 /\ 0 <= m_id m < 65536 /\ 0 <= m_type m < 256
  /\ m_type m <> 148 /\ m_type m <> 149 /\ m_type m <> 150
  /\ (length (m_data m) <= 24 * 255)%nat.

Definition mkey (m : message) : Z * Z * Z := (m_from m, m_to m, m_id m).
(* the same triple read off a frame: the code matches a fragment against the cached frame by it *)
Definition fkey (f : frame) : Z * Z * Z := (from_node (hdr f), to_node (hdr f), frame_id (hdr f)).
Definition mtotal (m : message) : nat := frag_total (length (m_data m)).
Definition is_long (m : message) : bool := (24 <? length (m_data m))%nat.
Definition hdr0 (m : message) : header :=
  mkHeader (m_from m) (m_to m) (m_id m) (IntT (m_type m)) 0.

(* fragment number i of a long message, exactly as the sender's loop builds it *)
Definition frag (m : message) (i : nat) : frame :=
  mkFrame (frag_header (hdr0 m) (m_type m) (mtotal m) i) (frag_slice (m_data m) (mtotal m) i).

Definition frames_of (m : message) : list frame :=
  if is_long m then fragment_frames (hdr0 m) (m_type m) (m_data m)
  else [mkFrame (hdr0 m) (m_data m)].

(* a frame the application sees carries message m *)
Definition delivers (m : message) (f : frame) : Prop :=
  from_node (hdr f) = m_from m /\ to_node (hdr f) = m_to m /\ frame_id (hdr f) = m_id m
  /\ message_type (hdr f) = IntT (m_type m) /\ msg f = m_data m.

(* what FrameQueueFrag.enqueue does with each kind of fragment (any other frame:
   QueueFacts.frag_enqueue_plain) *)
Lemma frag_enqueue_first q f : message_type (hdr f) = IntT MSG_FRAG_FIRST ->
  frag_enqueue q f = match mask_hdr (hdr f) with
                     | None => None
                     | Some mh => Some (true, mkFQ (base q) (Some (mkFrame mh (msg f))), false)
                     end.
Proof.
  intros H. unfold frag_enqueue, copy_frame. rewrite H. cbn. destruct (mask_hdr (hdr f)); reflexivity.
Qed.

(* a MORE or LAST fragment is discarded, or it continues the cached message c in sequence:
   then MORE extends the cache and LAST hands the completed message to the base queue *)
Lemma frag_enqueue_cont q f (last : bool) :
  message_type (hdr f) = IntT (if last then MSG_FRAG_LAST else MSG_FRAG_MORE) ->
  frag_enqueue q f = Some (false, q, false) \/
  exists c, cache q = Some c /\ fkey f = fkey c
    /\ (if last then reserved (hdr c) <= 2 else reserved (hdr c) - 1 = reserved (hdr f))
    /\ frag_enqueue q f =
       match mask_hdr (hdr f) with
       | None => None
       | Some mh =>
         if last then
           match enqueue (base q) (mkFrame (mkHeader (from_node mh) (to_node mh) (frame_id mh)
                                                     (IntT (reserved (hdr f))) (reserved mh))
                                           (msg c ++ msg f)) with
           | None => None
           | Some (r, b') => Some (r, mkFQ b' None, reserved (hdr f) =? NETWORK_EXT_DATA)
           end
         else Some (true, mkFQ (base q) (Some (mkFrame mh (msg c ++ msg f))), false)
       end.
Proof.
  intros H. unfold frag_enqueue. rewrite H.
  (* both kinds pass the same two tests first: a cached frame, with the same (from, to, id) *)
  destruct last; cbn.
  all: destruct (cache q) as [c|]; [|left; reflexivity].
  all: destruct (_ && _ && _) eqn:Hs; [|left; reflexivity].
  all: apply andb_prop in Hs as [Hs H3]; apply andb_prop in Hs as [H1 H2].
  all: apply Z.eqb_eq in H1, H2, H3.
  all: assert (Hk : fkey f = fkey c) by (unfold fkey; rewrite H1, H2, H3; reflexivity).
  - destruct (Z.ltb_spec 2 (reserved (hdr c))); [left; reflexivity|right; exists c; auto].
  - destruct (Z.eqb_spec (reserved (hdr c) - 1) (reserved (hdr f)));
      [right; exists c; auto|left; reflexivity].
Qed.

(* the reassembly cache while fragments 0..k of m have been accepted *)
Definition prefix_frame (m : message) (k : nat) : frame :=
  mkFrame (mkHeader (m_from m) (m_to m) (m_id m)
                    (IntT (if Nat.eqb k 0 then MSG_FRAG_FIRST else MSG_FRAG_MORE))
                    (Z.of_nat (mtotal m - k)))
          (firstn (24 * (k + 1)) (m_data m)).

Section Reassembly.
  Variable S : list message.
  Hypothesis S_wf : forall m, In m S -> wf_msg m.
  Hypothesis S_keys : NoDup (map mkey S).

  Definition CacheInv (c : option frame) : Prop :=
    match c with
    | None => True
    | Some cf => exists m k, In m S /\ is_long m = true /\ (k + 2 <= mtotal m)%nat
                             /\ cf = prefix_frame m k
    end.

  Definition FInv (q : fragq) : Prop :=
    CacheInv (cache q)
    /\ stored_ok (base q)
    /\ forall f, In f (qframes (base q)) -> exists m, In m S /\ delivers m f.

  (* every header a sent message travels under is within the wire widths: copies are exact *)
  Lemma wf_mask m ty r : In m S -> 0 <= ty < 256 -> 0 <= r < 256 ->
    let h := mkHeader (m_from m) (m_to m) (m_id m) (IntT ty) r in mask_hdr h = Some h.
  Proof.
    intros Hm Ht Hr h. destruct (S_wf m Hm) as (H1 & H2 & H3 & _). apply (mask_hdr_id h ty); trivial.
  Qed.

  Lemma deliver_inv q m r c' : FInv q -> In m S -> 0 <= r < 256 -> CacheInv c' ->
    exists ok b',
      enqueue (base q) (mkFrame (mkHeader (m_from m) (m_to m) (m_id m) (IntT (m_type m)) r) (m_data m))
      = Some (ok, b') /\ FInv (mkFQ b' c').
  Proof.
    intros (_ & Hs & Hd) Hm Hr HC'. set (f := mkFrame _ _).
    assert (Hc : copy_frame f = Some f).
    { unfold copy_frame, f. cbn [hdr msg]. rewrite wf_mask; trivial. apply (S_wf m Hm). }
    destruct (enqueue (base q) f) as [[ok b']|] eqn:E; [|destruct (enqueue_total _ _ _ Hc E)].
    exists ok, b'. split; [reflexivity|]. split; [exact HC'|]. split.
    - exact (enqueue_Forall _ _ _ _ _ E Hs (copy_frame_int f)).
    - apply Forall_forall, (enqueue_Forall _ _ _ _ _ E); [apply Forall_forall, Hd|].
      intros c Hc0. rewrite Hc in Hc0. injection Hc0 as <-. exists m. repeat split; trivial.
  Qed.

  Lemma cache_same q m c : FInv q -> In m S -> cache q = Some c -> mkey m = fkey c ->
    exists k, (k + 2 <= mtotal m)%nat /\ c = prefix_frame m k.
  Proof.
    intros (HC & _) Hm Hc Hk. rewrite Hc in HC. destruct HC as (m' & k & Hm' & _ & Hk' & ->).
    rewrite (NoDup_map_inj mkey S m m' S_keys Hm Hm' Hk). eauto.
  Qed.

  Lemma arrive_frag q m i :
    FInv q -> In m S -> is_long m = true -> (i < mtotal m)%nat ->
    exists r q' e, frag_enqueue q (frag m i) = Some (r, q', e) /\ FInv q'.
  Proof.
    intros Hq Hm Hl Hi. destruct (S_wf m Hm) as (_ & _ & _ & Hty & _ & _ & _ & Hlen).
    assert (HT : (2 <= mtotal m <= 255 /\ length (m_data m) <= 24 * mtotal m)%nat).
    { pose proof (proj1 (Nat.ltb_lt _ _) Hl). pose proof (frag_total_bounds (length (m_data m))).
      unfold mtotal. lia. }
    clear Hlen. unfold frag.
    destruct (Nat.eq_dec i 0) as [->|Hnz]; [|destruct (Nat.eq_dec i (mtotal m - 1)) as [->|Hnl]].
    - (* FIRST: the cache becomes prefix 0 *)
      rewrite frag_header_first, frag_enqueue_first by (lia || reflexivity).
      unfold MSG_FRAG_FIRST. cbn [hdr hdr0 msg from_node to_node frame_id]. rewrite wf_mask by (trivial; lia).
      eexists _, _, _. split; [reflexivity|]. split; [|exact (proj2 Hq)].
      exists m, 0%nat. repeat split; trivial; [lia|].
      unfold prefix_frame. rewrite frag_slice_chunk, Nat.sub_0_r by lia. reflexivity.
    - (* LAST: accepted only on prefix T-2; the completed message goes to the base queue *)
      rewrite frag_header_last. set (f := mkFrame _ _).
      destruct (frag_enqueue_cont q f true eq_refl) as [E|(c & Hc & Hsame & Hseq & E)];
        rewrite E; [exists false, q, false; auto|].
      destruct (cache_same q m c Hq Hm Hc Hsame) as (k & Hk & ->).
      subst f. cbn [hdr hdr0 msg reserved prefix_frame from_node to_node frame_id] in Hseq |- *.
      unfold MSG_FRAG_LAST. rewrite wf_mask by (trivial; lia). cbn [from_node to_node frame_id reserved].
      replace (k + 1)%nat with (mtotal m - 1)%nat by lia. rewrite prefix_slice, firstn_all2 by lia.
      destruct (deliver_inv q m (m_type m) None Hq Hm Hty I) as (r & b' & E' & HF). rewrite E'. eauto.
    - (* MORE: accepted only on prefix i-1; the cache becomes prefix i *)
      rewrite frag_header_more by lia. set (f := mkFrame _ _).
      destruct (frag_enqueue_cont q f false eq_refl) as [E|(c & Hc & Hsame & Hseq & E)];
        rewrite E; [exists false, q, false; auto|].
      destruct (cache_same q m c Hq Hm Hc Hsame) as (k & Hk & ->).
      subst f. cbn [hdr hdr0 msg reserved prefix_frame from_node to_node frame_id] in Hseq |- *.
      unfold MSG_FRAG_MORE. rewrite wf_mask by (trivial; lia).
      eexists _, _, _. split; [reflexivity|]. split; [|exact (proj2 Hq)].
      exists m, i. repeat split; trivial; [lia|].
      assert (i = Datatypes.S k) as -> by lia.
      unfold prefix_frame. rewrite Nat.add_1_r, prefix_slice, Nat.add_1_r by lia. reflexivity.
  Qed.

  (* every frame of a sent message, in any state satisfying the invariant *)
  Lemma arrive_inv q m f :
    FInv q -> In m S -> In f (frames_of m) ->
    exists r q' e, frag_enqueue q f = Some (r, q', e) /\ FInv q'.
  Proof.
    intros Hq Hm Hf. unfold frames_of in Hf. destruct (is_long m) eqn:Hl.
    - apply in_map_iff in Hf. destruct Hf as (i & <- & Hi). apply in_seq in Hi.
      exact (arrive_frag q m i Hq Hm Hl (proj2 Hi)).
    - (* a short message goes to the base queue as it is *)
      destruct Hf as [<-|[]]. rewrite frag_enqueue_plain.
      + destruct (deliver_inv q m 0 (cache q) Hq Hm ltac:(lia) (proj1 Hq)) as (r & b' & E & HF).
        unfold hdr0. rewrite E. eauto.
      + destruct (S_wf m Hm) as (_ & _ & _ & _ & N1 & N2 & N3 & _).
        unfold not_frag. cbn.
        rewrite !(proj2 (Z.eqb_neq _ _)) by assumption. reflexivity.
  Qed.

  Inductive event := Arrive (f : frame) | Dequeue.

  Definition sent_frame (f : frame) : Prop := exists m, In m S /\ In f (frames_of m).

  Definition stream_ok (es : list event) : Prop :=
    Forall (fun e => match e with Arrive f => sent_frame f | Dequeue => True end) es.

  (* run a stream; collects what the application dequeues; None = enqueue raised *)
  Fixpoint run_stream (q : fragq) (es : list event) : option (list frame * fragq) :=
    match es with
    | [] => Some ([], q)
    | Arrive f :: t =>
      match frag_enqueue q f with
      | None => None
      | Some (_, q', _) => run_stream q' t
      end
    | Dequeue :: t =>
      let '(o, b') := dequeue (base q) in
      match run_stream (mkFQ b' (cache q)) t with
      | None => None
      | Some (out, qf) => Some (match o with Some f => f :: out | None => out end, qf)
      end
    end.

  Lemma dequeue_FInv q o b' : FInv q -> dequeue (base q) = (o, b') ->
    FInv (mkFQ b' (cache q)) /\ (forall f, o = Some f -> exists m, In m S /\ delivers m f).
  Proof.
    intros (HC & Hs & Hd) H. apply dequeue_frames in H. unfold FInv, stored_ok in *.
    rewrite H in Hs, Hd. apply Forall_app in Hs.
    split; [split; [exact HC|split; [exact (proj2 Hs)|]]|].
    - intros f Hf. apply Hd, in_or_app. right; exact Hf.
    - intros f ->. apply Hd. left; reflexivity.
  Qed.

End Reassembly.

(* non-vacuity: two senders with the same frame id, fragments interleaved, a
   duplicate and a stray fragment: exactly the two complete messages come out *)
Definition ex_m1 : message := mkMsg 1 0 9 65 (map N.of_nat (seq 0 50)).
Definition ex_m2 : message := mkMsg 2 0 9 7 (map N.of_nat (seq 100 30)).

Lemma ex_wf : forall m, In m [ex_m1; ex_m2] -> wf_msg m.
Proof.
  intros m [<-|[<-|[]]]; unfold wf_msg; cbn -[Nat.mul]; repeat split; try lia.
Qed.

Lemma ex_keys : NoDup (map mkey [ex_m1; ex_m2]).
Proof.
  constructor; [intros [H|[]]; discriminate|]. constructor; [intros []|constructor].
Qed.

Example ex_stream_ok :
  stream_ok [ex_m1; ex_m2]
    [Arrive (frag ex_m1 0); Arrive (frag ex_m1 1); Arrive (frag ex_m2 1); Arrive (frag ex_m1 1);
     Arrive (frag ex_m1 2); Arrive (frag ex_m2 0); Arrive (frag ex_m1 2); Arrive (frag ex_m2 1);
     Dequeue; Dequeue; Dequeue].
Proof.
  repeat constructor;
    try (exists ex_m1; split; [left; reflexivity|vm_compute; tauto]);
    try (exists ex_m2; split; [right; left; reflexivity|vm_compute; tauto]).
Qed.

Example ex_stream_result :
  option_map fst (run_stream empty_fragq
    [Arrive (frag ex_m1 0); Arrive (frag ex_m1 1); Arrive (frag ex_m2 1); Arrive (frag ex_m1 1);
     Arrive (frag ex_m1 2); Arrive (frag ex_m2 0); Arrive (frag ex_m1 2); Arrive (frag ex_m2 1);
     Dequeue; Dequeue; Dequeue])
  = Some [mkFrame (mkHeader 1 0 9 (IntT 65) 65) (m_data ex_m1);
          mkFrame (mkHeader 2 0 9 (IntT 7) 7) (m_data ex_m2)].
Proof. vm_compute. reflexivity. Qed.
