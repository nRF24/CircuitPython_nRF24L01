(* RouteFacts.v -- C04: routing over the 781-address space, hop by hop.
   _logi_2_phys decides with bit masks; tree_path is written with digit lists.  The link:
   the mask test d & mask == addr can only hold when the sender's digits are a prefix of
   the destination's (land_prefix, arithmetic), so every other destination is sent to the
   parent (hop_up); the 2930 (ancestor, descendant) pairs and the 781 sets of constants
   are checked by kernel computation (descs_ok, nodes_ok; read by hop_down, node_consts).
   That tree_path advances by exactly that node is a fact about lists (tp_up, tp_down, over
   the two halves of the path written without fuel); route then follows tree_path by
   induction on its fuel (route_follows). *)
From Coq Require Import NArith PeanoNat List Bool Lia.
From NRF Require Import Base.Lists Net.Addr Net.AddrFacts.
Import ListNotations.
Local Open Scope N_scope.

(* a step of a route goes to the parent or to a child *)
Definition step_ok (cur nxt : N) : bool :=
  (nxt =? parent_of cur) || ((parent_of nxt =? cur) && negb (nxt =? 0)).

Fixpoint steps_ok (cur : N) (path : list N) : bool :=
  match path with
  | [] => true
  | n :: t => step_ok cur n && steps_ok n t
  end.

(* every hop goes to pipe 1..5 of a node of the address space, and when it goes up
   the pipe is the sender's own last digit (the parent's child number) *)
Fixpoint pipes_ok (cur : N) (r : list (N * N)) : bool :=
  match r with
  | [] => true
  | (n, p) :: t =>
    (1 <=? p) && (p <=? 5) && node_specb n
    && (if n =? parent_of cur then p =? last (digits_of 8 cur) 0 else p =? 5)
    && pipes_ok n t
  end.

Lemma common_prefix_app x r : common_prefix x (x ++ r) = x.
Proof. induction x as [|a x IH]; cbn; [|rewrite N.eqb_refl, IH]; reflexivity. Qed.

Lemma common_prefix_firstn n : forall x y, common_prefix (firstn n x) y = firstn n (common_prefix x y).
Proof.
  induction n as [|n IH]; intros [|a x] [|b y]; try reflexivity.
  cbn [firstn common_prefix]. destruct (a =? b); [rewrite IH|]; reflexivity.
Qed.

(* length (common_prefix x y) < length x says that x is not a prefix of y, here and below *)
Lemma common_prefix_removelast x y :
  (length (common_prefix x y) < length x)%nat ->
  common_prefix (removelast x) y = common_prefix x y.
Proof. intro H. rewrite removelast_firstn_len, common_prefix_firstn. apply firstn_all2. lia. Qed.

Lemma common_prefix_full x : forall y,
  (length x <= length (common_prefix x y))%nat -> y = x ++ skipn (length x) y.
Proof.
  induction x as [|a x IH]; intros [|b y] H; cbn in *; try reflexivity; try lia.
  destruct (N.eqb_spec a b) as [->|]; cbn in H; [|lia]. f_equal. apply IH. lia.
Qed.

(* the two halves of tree_path without fuel: the n nearest ancestors of the node with digits x,
   and the descendants of the node with digits cur along rest *)
Fixpoint ancestors (n : nat) (x : list N) : list N :=
  match n with
  | O => []
  | S n => of_digits (removelast x) :: ancestors n (removelast x)
  end.

Fixpoint descendants (cur rest : list N) : list N :=
  match rest with
  | [] => []
  | b :: r => of_digits (cur ++ [b]) :: descendants (cur ++ [b]) r
  end.

Lemma up_path_ancestors f : forall ds stop,
  (length ds <= f)%nat -> up_path f ds stop = ancestors (length ds - length stop) ds.
Proof.
  induction f as [|f IH]; intros ds stop H; cbn [up_path].
  - destruct ds; [reflexivity|cbn in H; lia].
  - destruct (Nat.leb_spec (length ds) (length stop)) as [H1|H1].
    + replace (length ds - length stop)%nat with O by lia. reflexivity.
    + replace (length ds - length stop)%nat with (S (length (removelast ds) - length stop))
        by (rewrite removelast_length; lia).
      rewrite IH by (rewrite removelast_length; lia). reflexivity.
Qed.

Lemma down_path_descendants f : forall cur rest,
  (length rest <= f)%nat -> down_path f cur rest = descendants cur rest.
Proof.
  induction f as [|f IH]; intros cur [|b r] H; try reflexivity; cbn [length] in H; [lia|].
  cbn [down_path descendants]. rewrite IH by lia. reflexivity.
Qed.

Lemma ancestors_length n : forall x, length (ancestors n x) = n.
Proof. induction n as [|n IH]; intro x; cbn; [|rewrite IH]; reflexivity. Qed.

Lemma descendants_length rest : forall cur, length (descendants cur rest) = length rest.
Proof. induction rest as [|b r IH]; intro cur; cbn; [|rewrite IH]; reflexivity. Qed.

(* tree_path as a function of the two digit lists *)
Definition tp (x y : list N) : list N :=
  let cp := common_prefix x y in
  ancestors (length x - length cp) x ++ descendants cp (skipn (length cp) y).

Lemma tree_path_tp s d :
  In s all_nodes -> In d all_nodes -> tree_path s d = tp (digits_of 8 s) (digits_of 8 d).
Proof.
  intros Hs Hd. apply node_digits in Hs, Hd. unfold tree_path, tp.
  rewrite up_path_ancestors, down_path_descendants; [reflexivity|rewrite skipn_length; lia|lia].
Qed.

Lemma tp_prefix x r : tp x (x ++ r) = descendants x r.
Proof. unfold tp. rewrite common_prefix_app, skipn_app_exact, Nat.sub_diag. reflexivity. Qed.

Lemma tp_refl x : tp x x = [].
Proof. rewrite <- (app_nil_r x) at 2. apply tp_prefix. Qed.

(* the first step of the path: to the parent when y is not below x, ... *)
Lemma tp_up x y :
  (length (common_prefix x y) < length x)%nat ->
  tp x y = of_digits (removelast x) :: tp (removelast x) y.
Proof.
  intro H. unfold tp. rewrite (common_prefix_removelast x y H), removelast_length.
  replace (length x - length (common_prefix x y))%nat
    with (S (pred (length x) - length (common_prefix x y))) by lia.
  reflexivity.
Qed.

(* ... else to the child on the way to y *)
Lemma tp_down x b r : tp x (x ++ b :: r) = of_digits (x ++ [b]) :: tp (x ++ [b]) (x ++ b :: r).
Proof.
  rewrite tp_prefix. replace (x ++ b :: r) with ((x ++ [b]) ++ r) by (rewrite <- app_assoc; reflexivity).
  rewrite tp_prefix. reflexivity.
Qed.

Lemma tree_path_length s d :
  In s all_nodes -> In d all_nodes -> (length (tree_path s d) <= 8)%nat.
Proof.
  intros Hs Hd. rewrite tree_path_tp by assumption. unfold tp.
  rewrite app_length, ancestors_length, descendants_length, skipn_length. apply node_digits in Hs, Hd. lia.
Qed.

(* the next hop a node computes for a frame it forwards *)
Definition hop (cur dst : N) : option (N * N) :=
  option_map (fun c => fst (logi_2_phys c dst TX_ROUTED)) (begin_consts cur).

(* the origin sends with TX_NORMAL, which _logi_2_phys treats like TX_ROUTED *)
Lemma route_S f st cur dst :
  (TX_ROUTED <? st) = false ->
  route (S f) st cur dst =
  if cur =? dst then Some []
  else match hop cur dst with
       | None => None
       | Some (nxt, pipe) => option_map (cons (nxt, pipe)) (route f TX_ROUTED nxt dst)
       end.
Proof.
  intro Hst. cbn [route]. destruct (cur =? dst); [reflexivity|].
  unfold hop. destruct (begin_consts cur) as [c|]; [|reflexivity]. cbn [option_map].
  replace (logi_2_phys c dst st) with (logi_2_phys c dst TX_ROUTED)
    by (unfold logi_2_phys; rewrite Hst; reflexivity).
  destruct (logi_2_phys c dst TX_ROUTED) as [[nxt pipe] mc]. cbn [fst].
  destruct (route f TX_ROUTED nxt dst); reflexivity.
Qed.

(* per node: the constants _begin computes, in closed form *)
Definition node_ok (s : N) : bool :=
  match begin_consts s with
  | None => false
  | Some c =>
    let sd := digits_of 8 s in
    (c_addr c =? s) && (c_mask c =? N.ones (3 * N.of_nat (length sd)))
    && (c_lvl c =? N.of_nat (length sd))
    && (c_parent c =? parent_of s) && (c_ppipe c =? last sd 0)
  end.

Lemma nodes_ok : forall s, In s all_nodes -> node_ok s = true.
Proof. apply forallb_forall. vm_compute. reflexivity. Qed.

Lemma node_consts s :
  In s all_nodes ->
  exists c, begin_consts s = Some c
    /\ c_addr c = s /\ c_mask c = N.ones (3 * N.of_nat (length (digits_of 8 s)))
    /\ c_lvl c = N.of_nat (length (digits_of 8 s))
    /\ c_parent c = parent_of s /\ c_ppipe c = last (digits_of 8 s) 0.
Proof.
  intro Hs. pose proof (nodes_ok s Hs) as H. unfold node_ok in H.
  destruct (begin_consts s) as [c|]; [|discriminate]. exists c.
  rewrite !andb_true_iff, !N.eqb_eq in H.
  destruct H as ((((Ea & Em) & El) & Ep) & Epp). auto 6.
Qed.

(* per node d and proper prefix (the first j digits) of its digits: the hop from that
   ancestor towards d goes to the ancestor's child on the way, by pipe 5 *)
Definition desc_ok (d : N) (dd : list N) (j : nat) : bool :=
  let sd := firstn j dd in
  match hop (of_digits sd) d, skipn j dd with
  | Some (n, p), b :: _ => (n =? of_digits (sd ++ [b])) && (p =? 5)
  | _, _ => false
  end.

Lemma descs_ok : forall d, In d all_nodes ->
  forall j, In j (seq 0 (length (digits_of 8 d))) -> desc_ok d (digits_of 8 d) j = true.
Proof.
  (* two nested sweeps: forallb_forall backwards, twice, leaves a forallb of forallb to evaluate *)
  intros d Hd. apply forallb_forall. revert d Hd. apply forallb_forall. vm_compute. reflexivity.
Qed.

(* bits to digits: the mask test of _logi_2_phys (d & mask == addr) holds only if the
   sender's digits are a prefix of the destination's: what the mask leaves of d is the value
   of the first digits of d, the digits of an ancestor *)
Lemma land_prefix s d :
  In d all_nodes ->
  N.land d (N.ones (3 * N.of_nat (length (digits_of 8 s)))) = s ->
  common_prefix (digits_of 8 s) (digits_of 8 d) = digits_of 8 s.
Proof.
  intros Hd E. destruct (node_digits d Hd) as (_ & F & Ed).
  rewrite N.land_ones, N.pow_mul_r in E. change (2 ^ 3) with 8 in E.
  set (k := length (digits_of 8 s)) in *.
  destruct (prefix_node d _ _ Hd (eq_sym (firstn_skipn k (digits_of 8 d)))) as [_ E1].
  rewrite of_digits_firstn, Ed, E in E1 by (revert F; apply Forall_impl; lia).
  rewrite <- (firstn_skipn k (digits_of 8 d)), <- E1. apply common_prefix_app.
Qed.

(* d is not below s: up to the parent, whatever else d is *)
Lemma hop_up s d :
  In s all_nodes -> In d all_nodes ->
  (length (common_prefix (digits_of 8 s) (digits_of 8 d)) < length (digits_of 8 s))%nat ->
  hop s d = Some (parent_of s, last (digits_of 8 s) 0).
Proof.
  intros Hs Hd Hup.
  destruct (node_consts s Hs) as (c & Ec & Ea & Em & _ & Ep & Epp).
  assert (Hm : (N.land d (c_mask c) =? c_addr c) = false).
  { apply N.eqb_neq. intro E. rewrite Em, Ea in E. rewrite (land_prefix s d Hd E) in Hup. lia. }
  unfold hop. rewrite Ec. cbn [option_map]. unfold logi_2_phys. rewrite Hm, Ep, Epp. reflexivity.
Qed.

(* d is below the node with digits x: to the child on the way, one of the swept pairs *)
Lemma hop_down d x b r :
  In d all_nodes -> digits_of 8 d = x ++ b :: r ->
  hop (of_digits x) d = Some (of_digits (x ++ [b]), 5).
Proof.
  intros Hd E.
  assert (Hj : In (length x) (seq 0 (length (digits_of 8 d)))).
  { apply in_seq. rewrite E, app_length. cbn [length]. lia. }
  pose proof (descs_ok d Hd _ Hj) as H. unfold desc_ok in H.
  rewrite E, firstn_app_exact, skipn_app_exact in H.
  destruct (hop (of_digits x) d) as [[n p]|]; [|discriminate].
  rewrite andb_true_iff, !N.eqb_eq in H. destruct H as [-> ->]. reflexivity.
Qed.

(* what else is said of that child is read off its digits *)
Lemma child_digits d x b r :
  In d all_nodes -> digits_of 8 d = x ++ b :: r ->
  let s := of_digits x in
  let n := of_digits (x ++ [b]) in
  In n all_nodes /\ digits_of 8 n = x ++ [b] /\ (n =? parent_of s) = false /\ step_ok s n = true.
Proof.
  intros Hd E s n. subst s n.
  destruct (prefix_node d x (b :: r) Hd E) as [Hs Es].
  destruct (prefix_node d (x ++ [b]) r Hd) as [Hn En]; [rewrite <- app_assoc; exact E|].
  repeat split; try assumption.
  - (* the child has more digits than the parent of s *)
    apply N.eqb_neq. intro X. apply (f_equal (fun a => length (digits_of 8 a))) in X.
    rewrite En, (proj2 (parent_digits _ Hs)), Es, removelast_length, app_length in X. cbn [length] in X. lia.
  - unfold step_ok, parent_of. rewrite En, removelast_last, N.eqb_refl.
    replace (of_digits (x ++ [b]) =? 0) with false; [apply orb_true_r|].
    symmetry. apply N.eqb_neq. intro X. rewrite X in En. destruct x; discriminate En.
Qed.

Lemma hop_correct s d :
  In s all_nodes -> In d all_nodes -> s <> d ->
  exists n p, hop s d = Some (n, p) /\ In n all_nodes
    /\ ((1 <=? p) && (p <=? 5) && node_specb n
        && (if n =? parent_of s then p =? last (digits_of 8 s) 0 else p =? 5)) = true
    /\ step_ok s n = true
    /\ tree_path s d = n :: tree_path n d.
Proof.
  intros Hs Hd Hne. rewrite tree_path_tp by assumption.
  destruct (Nat.ltb_spec (length (common_prefix (digits_of 8 s) (digits_of 8 d))) (length (digits_of 8 s)))
    as [Hup|Hdown].
  - (* d is not below s *)
    destruct (parent_digits s Hs) as [Hn En].
    destruct (last_digit s Hs) as [H1 H2]; [intro X; rewrite X in Hup; inversion Hup|].
    apply N.leb_le in H1, H2.
    exists (parent_of s), (last (digits_of 8 s) 0).
    unfold step_ok. rewrite !N.eqb_refl, H1, H2, (proj1 (all_nodes_spec _) Hn), tree_path_tp, En by assumption.
    repeat split; try assumption; [exact (hop_up s d Hs Hd Hup)|exact (tp_up _ _ Hup)].
  - (* d is below s, and is not s: its digits go on after those of s *)
    apply common_prefix_full in Hdown. destruct (node_digits s Hs) as (_ & _ & Es).
    destruct (skipn (length (digits_of 8 s)) (digits_of 8 d)) as [|b r].
    { exfalso. apply Hne. rewrite <- Es, <- (proj2 (proj2 (node_digits d Hd))), Hdown, app_nil_r. reflexivity. }
    destruct (child_digits d _ b r Hd Hdown) as (Hn & En & Hnp & Hk). pose proof (hop_down d _ b r Hd Hdown) as Eh.
    rewrite Es in Hnp, Hk, Eh.
    exists (of_digits (digits_of 8 s ++ [b])), 5.
    rewrite Hnp, (proj1 (all_nodes_spec _) Hn), tree_path_tp, En, Hdown by assumption.
    repeat split; try assumption. apply tp_down.
Qed.

Lemma route_follows f : forall st s d,
  (TX_ROUTED <? st) = false -> In s all_nodes -> In d all_nodes ->
  (length (tree_path s d) < f)%nat ->
  exists r, route f st s d = Some r
    /\ map fst r = tree_path s d
    /\ steps_ok s (map fst r) = true
    /\ last (map fst r) s = d
    /\ pipes_ok s r = true.
Proof.
  induction f as [|f IH]; intros st s d Hst Hs Hd Hl; [inversion Hl|].
  rewrite (route_S _ _ _ _ Hst). destruct (N.eqb_spec s d) as [->|Hne].
  { exists []. rewrite tree_path_tp, tp_refl by assumption. repeat split; reflexivity. }
  destruct (hop_correct s d Hs Hd Hne) as (n & p & Eh & Hn & Hp & Hk & Et).
  rewrite Et in Hl |- *. cbn [length] in Hl.
  destruct (IH TX_ROUTED n d eq_refl Hn Hd) as (r & Er & E1 & E2 & E3 & E4); [lia|].
  rewrite Eh, Er. exists ((n, p) :: r). cbn [option_map map fst steps_ok pipes_ok].
  rewrite last_cons, E2, E3, E4, Hk, Hp, E1. repeat split.
Qed.

Theorem route_correct s d :
  In s all_nodes -> In d all_nodes ->
  exists r, route 10 TX_NORMAL s d = Some r
    /\ map fst r = tree_path s d
    /\ (length r <= 8)%nat
    /\ steps_ok s (map fst r) = true
    /\ last (map fst r) s = d
    /\ pipes_ok s r = true.
Proof.
  intros Hs Hd. pose proof (tree_path_length s d Hs Hd) as Hl.
  destruct (route_follows 10 TX_NORMAL s d eq_refl Hs Hd) as (r & Er & E1 & E2 & E3 & E4); [lia|].
  exists r. rewrite <- E1, map_length in Hl. auto 7.
Qed.
