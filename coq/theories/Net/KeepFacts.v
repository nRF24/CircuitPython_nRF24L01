(* KeepFacts.v -- the network layer (Net/Node.v: _net_update, the two handlers, _write, _write_to_pipe, the
   fragment loop, the NETWORK_ACK wait, _begin) never touches the mesh fields of a node: node ID, lease table,
   pending-request flag.  A frame lemma for the monad NM, proved by structural rules and one induction on the
   shared fuel of the mutually recursive functions; it holds on every bus. *)
From Coq Require Import ZArith NArith List Bool.
From NRF Require Import Drv.RF24 Net.Node.

Section Keep.
  Context {bus : Type}.

  Definition mesh_of (n : node) : Z * list (Z * Z) * bool := (n_id n, n_dhcp n, n_do_dhcp n).
  Definition Keeps {A} (m : NM (bus := bus) A) : Prop :=
    forall n b, mesh_of (snd (fst (m n b))) = mesh_of n.

  Lemma keeps_ret {A} (a : A) : Keeps (nret a).
  Proof. intros n b. reflexivity. Qed.
  Lemma keeps_raise {A} e : Keeps (@nraise bus A e).
  Proof. intros n b. reflexivity. Qed.
  Lemma keeps_get : Keeps (@nget bus).
  Proof. intros n b. reflexivity. Qed.
  Lemma keeps_mod f : (forall n, mesh_of (f n) = mesh_of n) -> Keeps (nmod (bus := bus) f).
  Proof. intros H n b. apply H. Qed.
  Lemma keeps_rf {A} (m : M (bus := bus) A) : Keeps (rf m).
  Proof. intros n b. unfold rf. destruct (m (n_rf n) b) as [[r d'] b']. reflexivity. Qed.
  Lemma keeps_bind {A C} (m : NM A) (f : A -> NM C) : Keeps m -> (forall a, Keeps (f a)) -> Keeps (nbind m f).
  Proof.
    intros Hm Hf n b. unfold nbind. specialize (Hm n b). destruct (m n b) as [[[a|e] n1] b1].
    - rewrite (Hf a n1 b1). exact Hm.
    - exact Hm.
  Qed.

End Keep.

(* Keeps goals are closed by auto: every rule and every proved Keeps is a hint, and auto applies hints
   without unfolding, so each node of a body is met once by the one rule whose head fits.  The depth
   is the number of binds and case splits on the longest path through the body. *)
Create HintDb keeps discriminated.
#[export] Hint Resolve keeps_ret keeps_raise keeps_get keeps_rf keeps_bind : keeps.
#[export] Hint Extern 1 (Keeps (nmod _)) => apply keeps_mod; intro; reflexivity : keeps.
#[export] Hint Extern 2 (Keeps (match ?x with _ => _ end)) => case x : keeps.

Section KeepNode.
  Context {bus : Type} (B : busops bus).

  Lemma keeps_now_z : Keeps (now_z B).
  Proof. unfold now_z. auto with keeps. Qed.
  Lemma keeps_sleep ns : Keeps (sleep_ns B ns).
  Proof. unfold sleep_ns. auto with keeps. Qed.
  Lemma keeps_pipe_addr_of n a p : Keeps (pipe_addr_of (bus := bus) n a p).
  Proof. unfold pipe_addr_of. auto with keeps. Qed.
  Local Hint Resolve keeps_now_z keeps_sleep keeps_pipe_addr_of : keeps.

  Lemma keeps_open_all addr k : forall i, Keeps (open_all B addr i k).
  Proof. induction k as [|k IH]; intro i; cbn [open_all]; auto 40 with keeps. Qed.
  Local Hint Resolve keeps_open_all : keeps.

  Lemma keeps_begin addr : Keeps (begin B addr).
  Proof. unfold begin. auto 40 with keeps. Qed.

  Lemma keeps_enqueue_fb : Keeps (enqueue_fb (bus := bus)).
  Proof. unfold enqueue_fb. auto 40 with keeps. Qed.

  Lemma keeps_tx_standby_loop fuel : forall timeout, Keeps (tx_standby_loop B fuel timeout).
  Proof. induction fuel as [|k IH]; intro timeout; cbn [tx_standby_loop]; auto 40 with keeps. Qed.
  Local Hint Resolve keeps_enqueue_fb keeps_tx_standby_loop : keeps.

  Lemma keeps_tx_standby delta fuel : Keeps (tx_standby B delta fuel).
  Proof. unfold tx_standby. auto with keeps. Qed.
  Local Hint Resolve keeps_tx_standby : keeps.

  Lemma keeps_frag_retries fuel retries : forall result, Keeps (frag_retries B fuel retries result).
  Proof. induction retries as [|r IH]; intros [|]; simpl; auto 40 with keeps. Qed.
  Local Hint Resolve keeps_frag_retries : keeps.

  (* msg_t is split first: a case split under the induction hypothesis would change the hypothesis *)
  Lemma keeps_frag_loop fuel msg_t total k : forall count, Keeps (frag_loop B fuel msg_t total count k).
  Proof. destruct msg_t; induction k as [|k IH]; intro count; cbn [frag_loop]; auto 40 with keeps. Qed.
  Local Hint Resolve keeps_frag_loop : keeps.

  Lemma keeps_write_to_pipe tn tp mc fuel : Keeps (write_to_pipe B tn tp mc fuel).
  Proof. unfold write_to_pipe. auto 40 with keeps. Qed.
  Local Hint Resolve keeps_write_to_pipe : keeps.

  Lemma keeps_core fuel :
    (forall rv, Keeps (net_update B fuel rv)) /\
    (forall t, Keeps (handle_this B fuel t)) /\
    (forall t, Keeps (handle_other B fuel t)) /\
    (forall wd st, Keeps (write_ B fuel wd st)) /\
    (forall dl, Keeps (wait_ack B fuel dl)).
  Proof.
    induction fuel as [|k (IHu & IHt & IHo & IHw & IHa)]; repeat split; intros;
      cbn [net_update handle_this handle_other write_ wait_ack]; auto 40 with keeps.
  Qed.

  Theorem keeps_net_update fuel rv : Keeps (net_update B fuel rv).
  Proof. apply keeps_core. Qed.
  Theorem keeps_write fuel wd st : Keeps (write_ B fuel wd st).
  Proof. apply keeps_core. Qed.
End KeepNode.
#[export] Hint Resolve keeps_now_z keeps_sleep keeps_begin keeps_net_update keeps_write : keeps.
