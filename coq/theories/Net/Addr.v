(* Addr.v -- model of the pure address arithmetic of the network layer.
   Mirrors (method by method, same loops, same masks):
     network/structs.py   is_address_valid
     network/mixins.py    _lvl_2_addr, NetworkMixin._begin (address part),
                          _logi_2_phys, _pipe_address
   Model only: no proofs in this file (so it still extracts when a proof breaks). *)
From Coq Require Import NArith List Bool.
Import ListNotations.
Local Open Scope N_scope.

(* ---- constants (network/constants.py) ---- *)
Definition NETWORK_DEFAULT_ADDR : N := 2340.      (* 0o4444 *)
Definition NETWORK_MULTICAST_ADDR : N := 64.      (* 0o100 *)
Definition NETWORK_MULTICAST_ADDR_LVL_2 : N := 8. (* 0o10 *)
Definition NETWORK_MULTICAST_ADDR_LVL_4 : N := 512. (* 0o1000 *)
Definition TX_NORMAL : N := 0.
Definition TX_ROUTED : N := 1.
Definition TX_PHYSICAL : N := 2.
Definition TX_LOGICAL : N := 3.
Definition TX_MULTICAST : N := 4.

(* ---- is_address_valid (address is not None) ----
   while address:
       if (not 0 < (address & 7) <= 5) or (byte_count > 3): return False
       address >>= 3; byte_count += 1
   return True
   The loop leaves after at most 5 iterations (byte_count > 3), so fuel 8 is
   never exhausted; exhaustion returns false and is excluded by
   Props/C15.v (C15_valid_fuel). *)
Definition digit_limit : N := 3.

Fixpoint valid_loop (fuel : nat) (a cnt : N) : bool :=
  match fuel with
  | O => false
  | S f =>
    if a =? 0 then true
    else
      let d := N.land a 7 in
      if negb ((0 <? d) && (d <=? 5)) || (digit_limit <? cnt) then false
      else valid_loop f (N.shiftr a 3) (cnt + 1)
  end.

Definition is_address_valid (a : N) : bool :=
  if (a =? NETWORK_MULTICAST_ADDR) || (a =? NETWORK_MULTICAST_ADDR_LVL_2)
     || (a =? NETWORK_MULTICAST_ADDR_LVL_4)
  then true
  else valid_loop 8 a 0.

(* ---- _lvl_2_addr ---- *)
Definition lvl_2_addr (level : N) : N :=
  if level =? 0 then 0 else N.shiftl 1 ((level - 1) * 3).

(* ---- _begin: address-related attributes ----
   mask = 0xFFFF
   while self._addr & mask: mask = (mask << 3) & 0xFFFF; self._net_lvl += 1
   self._mask_inv = mask
   while not mask & 7: self._mask = (self._mask << 3) | 7; mask >>= 3
   self._parent = self._addr & (self._mask >> 3)
   self._parent_pipe = self._addr ; mask = self._mask >> 3
   while mask: mask >>= 3; self._parent_pipe >>= 3                          *)
Record consts := mkConsts {
  c_addr : N; c_mask : N; c_mask_inv : N; c_lvl : N; c_parent : N; c_ppipe : N }.

Fixpoint loop_maskinv (fuel : nat) (addr mask lvl : N) : option (N * N) :=
  match fuel with
  | O => None
  | S f =>
    if N.land addr mask =? 0 then Some (mask, lvl)
    else loop_maskinv f addr (N.land (N.shiftl mask 3) 65535) (lvl + 1)
  end.

Fixpoint loop_mask (fuel : nat) (mask m : N) : option N :=
  match fuel with
  | O => None
  | S f =>
    if negb (N.land mask 7 =? 0) then Some m
    else loop_mask f (N.shiftr mask 3) (N.lor (N.shiftl m 3) 7)
  end.

Fixpoint loop_ppipe (fuel : nat) (mask pp : N) : option N :=
  match fuel with
  | O => None
  | S f =>
    if mask =? 0 then Some pp
    else loop_ppipe f (N.shiftr mask 3) (N.shiftr pp 3)
  end.

Definition begin_consts (addr : N) : option consts :=
  match loop_maskinv 8 addr 65535 0 with
  | None => None
  | Some (minv, lvl) =>
    match loop_mask 8 minv 0 with
    | None => None
    | Some m =>
      match loop_ppipe 8 (N.shiftr m 3) addr with
      | None => None
      | Some pp =>
        Some (mkConsts addr m minv lvl (N.land addr (N.shiftr m 3)) pp)
      end
    end
  end.

(* ---- _logi_2_phys ---- returns (node, pipe, is_multicast) *)
Definition logi_2_phys (c : consts) (to_node send_type : N) : N * N * bool :=
  if TX_ROUTED <? send_type then (to_node, 0, true)
  else if N.land to_node (c_mask c) =? c_addr c then
    if N.land to_node (N.shiftl (c_mask_inv c) 3) =? 0
    then (to_node, 5, false)
    else (N.land to_node (N.lor (N.shiftl (c_mask c) 3) 7), 5, false)
  else (c_parent c, c_ppipe c, false).

(* ---- _pipe_address ----
   The address bytes are chosen from [prefix] and the six-byte [suffix]; to state
   injectivity for *arbitrary* distinct bytes the model first computes an index
   pattern (None = the prefix byte, Some i = suffix[i]) and then looks the bytes
   up.  Python raises IndexError when count reaches 5 or dec%8 > 5; the pattern
   function returns None in those cases.                                       *)
Definition pat := option N.

Fixpoint set_nth {A} (n : nat) (x : A) (l : list A) : option (list A) :=
  match n, l with
  | O, _ :: t => Some (x :: t)
  | S k, h :: t => match set_nth k x t with Some t' => Some (h :: t') | None => None end
  | _, [] => None
  end.

(* the while loop; [use] is the (loop-invariant) condition
   not allow_multicast or (pipe_number or not node_addr) *)
Fixpoint pa_loop (fuel : nat) (use : bool) (dec : N) (count : nat) (res : list pat)
  : option (list pat * nat) :=
  match fuel with
  | O => None
  | S f =>
    if dec =? 0 then Some (res, count)
    else
      let d := N.land dec 7 in
      if use then
        if 5 <? d then None           (* address_suffix[dec % 8] IndexError *)
        else match set_nth count (Some d) res with
             | None => None           (* result[count] IndexError *)
             | Some res' => pa_loop f use (N.shiftr dec 3) (S count) res'
             end
      else pa_loop f use (N.shiftr dec 3) (S count) res
  end.

Definition pipe_pattern (allow_mc : bool) (node_addr pipe : N) : option (list pat) :=
  let use := negb allow_mc || (negb (pipe =? 0) || (node_addr =? 0)) in
  match pa_loop 8 use node_addr 1 [None; None; None; None; None] with
  | None => None
  | Some (res, count) =>
    if use then
      if 5 <? pipe then None else set_nth 0 (Some pipe) res
    else
      (* elif allow_multicast and (not pipe_number or node_addr): always true here *)
      if 6 <? N.of_nat count then None
      else set_nth 1 (Some (N.of_nat (count - 1))) res
  end.

Definition lookup_pat (prefix : N) (suffix : list N) (p : pat) : N :=
  match p with
  | None => prefix
  | Some i => nth (N.to_nat i) suffix 0
  end.

Definition pipe_address (prefix : N) (suffix : list N) (allow_mc : bool)
           (node_addr pipe : N) : option (list N) :=
  match pipe_pattern allow_mc node_addr pipe with
  | None => None
  | Some ps => Some (map (lookup_pat prefix suffix) ps)
  end.

Definition default_prefix : N := 204. (* 0xCC *)
Definition default_suffix : list N := [195; 60; 51; 206; 62; 227].
   (* C3 3C 33 CE 3E E3 *)

(* ---- the 781 node addresses, generated level by level ---- *)
Definition digits15 : list N := [1; 2; 3; 4; 5].

Definition next_level (k : N) (lvl : list N) : list N :=
  flat_map (fun a => map (fun d => a + d * N.shiftl 1 (3 * k)) digits15) lvl.

Definition level_nodes (k : nat) : list N :=
  nat_rect (fun _ => list N) [0]
           (fun i acc => next_level (N.of_nat i) acc) k.

Definition all_nodes : list N :=
  level_nodes 0 ++ level_nodes 1 ++ level_nodes 2 ++ level_nodes 3 ++ level_nodes 4.

(* ---- independent routing specification: octal digit lists (least significant
   first = closest to the master first) ---- *)
Fixpoint digits_of (fuel : nat) (a : N) : list N :=
  match fuel with
  | O => []
  | S f => if a =? 0 then [] else N.land a 7 :: digits_of f (N.shiftr a 3)
  end.

Fixpoint of_digits (ds : list N) : N :=
  match ds with
  | [] => 0
  | d :: t => d + 8 * of_digits t
  end.

Fixpoint common_prefix (x y : list N) : list N :=
  match x, y with
  | a :: x', b :: y' => if a =? b then a :: common_prefix x' y' else []
  | _, _ => []
  end.

(* ancestors of s strictly above s down to (and including) the node with digit
   list [stop], nearest first *)
Fixpoint up_path (fuel : nat) (ds stop : list N) : list N :=
  match fuel with
  | O => []
  | S f =>
    if Nat.leb (length ds) (length stop) then []
    else let ds' := removelast ds in of_digits ds' :: up_path f ds' stop
  end.

(* descendants of the node with digits [cur] towards [target], nearest first *)
Fixpoint down_path (fuel : nat) (cur rest : list N) : list N :=
  match fuel, rest with
  | S f, d :: rest' => let cur' := cur ++ [d] in of_digits cur' :: down_path f cur' rest'
  | _, _ => []
  end.

Definition tree_path (s d : N) : list N :=
  let sd := digits_of 8 s in
  let dd := digits_of 8 d in
  let cp := common_prefix sd dd in
  up_path 8 sd cp ++ down_path 8 cp (skipn (length cp) dd).

(* the route the code takes: iterate each node's own next-hop choice; the origin
   calls _write(to, TX_NORMAL), every forwarding node _write(to, TX_ROUTED) *)
Fixpoint route (fuel : nat) (st cur dst : N) : option (list (N * N)) :=
  match fuel with
  | O => None
  | S f =>
    if cur =? dst then Some []
    else match begin_consts cur with
         | None => None
         | Some c =>
           let '(nxt, pipe, _) := logi_2_phys c dst st in
           match route f TX_ROUTED nxt dst with
           | None => None
           | Some r => Some ((nxt, pipe) :: r)
           end
         end
  end.

Definition parent_of (a : N) : N :=
  of_digits (removelast (digits_of 8 a)).
