(* AddrFacts.v -- Net/Addr.v in terms of octal digit lists (C04, C15): is_address_valid is the
   digit test (at most four digits, each in 1..5) or a multicast placeholder, for every natural
   number; all_nodes is the digit lists of length 0..4; digits_of and of_digits are inverse;
   the ancestors of a node are the prefixes of its digits. *)
From Coq Require Import NArith PeanoNat List Bool Lia.
From NRF Require Import Base.Lists Net.Addr.
Import ListNotations.
Local Open Scope N_scope.

Definition reservedb (a : N) : bool := (a =? 64) || (a =? 8) || (a =? 512).

(* boolean form of "at most four octal digits, each in 1..5" (0 has no digits) *)
Definition node_specb (a : N) : bool :=
  let ds := digits_of 8 a in
  Nat.leb (length ds) 4 && forallb (fun d => (1 <=? d) && (d <=? 5)) ds.

Lemma valid_loop_S f a cnt :
  valid_loop (S f) a cnt =
  if a =? 0 then true
  else if negb ((0 <? N.land a 7) && (N.land a 7 <=? 5)) || (digit_limit <? cnt) then false
       else valid_loop f (N.shiftr a 3) (cnt + 1).
Proof. reflexivity. Qed.

(* the loop is the digit test: every digit in 1..5 and, counting from c, at most four of
   them.  The hypotheses ask for fuel enough (the loop's f, the digit list's g) to carry the
   count past the limit, so that running out of fuel and having too many digits are the same
   `false`; hence no such fuel is the reason for a rejection (Props/C15.v, C15_valid_fuel). *)
Lemma valid_loop_digits f : forall g a c,
  c <= 4 -> 4 < c + N.of_nat f -> 4 < c + N.of_nat g ->
  valid_loop f a c =
  Nat.leb (length (digits_of g a) + N.to_nat c) 4 && forallb (fun d => (1 <=? d) && (d <=? 5)) (digits_of g a).
Proof.
  induction f as [|f IH]; intros [|g] a c H1 H2 H3; try (cbn in H2, H3; lia).
  rewrite valid_loop_S. cbn [digits_of]. destruct (a =? 0).
  - cbn [length forallb]. symmetry. rewrite andb_true_r. apply Nat.leb_le. lia.
  - cbn [forallb length].
    replace (0 <? N.land a 7) with (1 <=? N.land a 7) by (destruct (N.land a 7) as [|[p|p|]]; reflexivity).
    destruct ((1 <=? N.land a 7) && (N.land a 7 <=? 5)); cbn [negb orb andb]; [|apply eq_sym, andb_false_r].
    destruct (N.ltb_spec digit_limit c) as [Hc|Hc]; unfold digit_limit in Hc.
    + symmetry. apply andb_false_iff. left. apply Nat.leb_gt. lia.
    + rewrite (IH g) by lia.
      replace (S (length (digits_of g (N.shiftr a 3))) + N.to_nat c)%nat
        with (length (digits_of g (N.shiftr a 3)) + N.to_nat (c + 1))%nat by lia.
      reflexivity.
Qed.
Lemma valid_spec_bool a : is_address_valid a = node_specb a || reservedb a.
Proof.
  change (is_address_valid a) with (if reservedb a then true else valid_loop 8 a 0).
  destruct (reservedb a); [rewrite orb_true_r; reflexivity|].
  rewrite orb_false_r, (valid_loop_digits 8 8) by (cbn; lia). unfold node_specb. rewrite Nat.add_0_r. reflexivity.
Qed.

Lemma digits_of_nil f a : length (digits_of (S f) a) = 0%nat -> a = 0.
Proof. cbn [digits_of]. destruct (N.eqb_spec a 0); [trivial|discriminate]. Qed.

Lemma digit_split d x : d < 8 -> (d + 8 * x) mod 8 = d /\ (d + 8 * x) / 8 = x.
Proof.
  intro H. replace (d + 8 * x) with (d + x * 8) by lia.
  rewrite N.mod_add, N.div_add, N.mod_small, N.div_small by lia. split; reflexivity.
Qed.

Lemma land7_shiftr3 a : N.land a 7 = a mod 8 /\ N.shiftr a 3 = a / 8.
Proof. split; [exact (N.land_ones a 3)|exact (N.shiftr_div_pow2 a 3)]. Qed.

(* digits_of with fuel to spare has all the digits *)
Lemma of_digits_digits_of f : forall a, (length (digits_of f a) < f)%nat -> of_digits (digits_of f a) = a.
Proof.
  induction f as [|f IH]; intros a H; [lia|]. cbn [digits_of] in *.
  destruct (N.eqb_spec a 0) as [E|_]; [subst a; reflexivity|]. cbn [of_digits length] in *.
  rewrite IH by lia. destruct (land7_shiftr3 a) as [-> ->]. pose proof (N.div_mod a 8). lia.
Qed.

Lemma digits_of_of_digits ds f :
  Forall (fun d => 1 <= d <= 7) ds -> (length ds <= f)%nat -> digits_of f (of_digits ds) = ds.
Proof.
  revert f. induction ds as [|d t IH]; intros f HF Hl.
  - destruct f; reflexivity.
  - destruct f as [|f]; [simpl in Hl; lia|].
    inversion HF as [|? ? Hd Ht]; subst.
    cbn [of_digits digits_of].
    destruct (d + 8 * of_digits t =? 0) eqn:E; [apply N.eqb_eq in E; lia|].
    destruct (land7_shiftr3 (d + 8 * of_digits t)) as [-> ->].
    destruct (digit_split d (of_digits t)) as [-> ->]; [lia|].
    rewrite IH; [reflexivity|assumption|simpl in Hl; lia].
Qed.

Lemma of_digits_app x y : of_digits (x ++ y) = of_digits x + 8 ^ N.of_nat (length x) * of_digits y.
Proof.
  induction x as [|d x IH]; cbn [app of_digits length]; [rewrite N.mul_1_l; reflexivity|].
  rewrite IH, Nat2N.inj_succ, N.pow_succ_r'. lia.
Qed.

Lemma of_digits_firstn k : forall l,
  Forall (fun d => d < 8) l -> of_digits (firstn k l) = of_digits l mod 8 ^ N.of_nat k.
Proof.
  induction k as [|k IH]; intros l Hl; [cbn; rewrite N.mod_1_r; reflexivity|].
  destruct l as [|d t]; [cbn [firstn of_digits]; rewrite N.mod_0_l; [reflexivity|apply N.pow_nonzero; lia]|].
  inversion Hl as [|? ? Hd Ht]; subst. cbn [firstn of_digits]. rewrite (IH t Ht).
  rewrite Nat2N.inj_succ, N.pow_succ_r', N.mod_mul_r by lia.
  destruct (digit_split d (of_digits t) Hd) as [-> ->]. reflexivity.
Qed.

Lemma digits15_spec ds :
  forallb (fun d => (1 <=? d) && (d <=? 5)) ds = true <-> Forall (fun d => 1 <= d <= 5) ds.
Proof.
  rewrite forallb_forall, Forall_forall.
  split; intros H d Hd; specialize (H d Hd); rewrite andb_true_iff, !N.leb_le in *; exact H.
Qed.

(* level k of the generated address space is the digit lists of length k: a new level puts one
   more digit on top of every node of the level before *)
Lemma level_nodes_spec k : forall a,
  In a (level_nodes k) <->
  exists ds, length ds = k /\ Forall (fun d => 1 <= d <= 5) ds /\ a = of_digits ds.
Proof.
  induction k as [|k IH]; intro a.
  - cbn. split; [intros [<-|[]]; exists []; auto|].
    intros ([|] & Hl & _ & ->); [left; reflexivity|discriminate].
  - change (level_nodes (S k)) with (next_level (N.of_nat k) (level_nodes k)).
    unfold next_level. rewrite in_flat_map.
    assert (E : forall ds d, length ds = k -> of_digits (ds ++ [d]) = of_digits ds + d * N.shiftl 1 (3 * N.of_nat k)).
    { intros ds d <-. rewrite of_digits_app, N.shiftl_1_l, N.pow_mul_r. cbn [of_digits]. change (2 ^ 3) with 8. lia. }
    split.
    + intros (b & Hb & Ha). apply in_map_iff in Ha. destruct Ha as (d & <- & Hd).
      apply IH in Hb. destruct Hb as (ds & Hl & Hf & ->). exists (ds ++ [d]).
      split; [rewrite app_length; cbn; lia|]. split; [|symmetry; exact (E ds d Hl)].
      apply Forall_app. split; [exact Hf|]. constructor; [cbn in Hd; lia|constructor].
    + intros (ds & Hl & Hf & ->). destruct (exists_last (l := ds)) as (ds' & d & ->); [intros ->; discriminate|].
      rewrite app_length in Hl. cbn in Hl. apply Forall_app in Hf. destruct Hf as [Hf Hd]. inversion Hd; subst.
      exists (of_digits ds'). split; [apply IH; exists ds'; split; [lia|auto]|].
      apply in_map_iff. exists d. split; [symmetry; apply E; lia|cbn; lia].
Qed.

Theorem all_nodes_digits a :
  In a all_nodes <->
  exists ds, (length ds <= 4)%nat /\ Forall (fun d => 1 <= d <= 5) ds /\ a = of_digits ds.
Proof.
  unfold all_nodes. rewrite !in_app_iff, !level_nodes_spec. split.
  - intros [H|[H|[H|[H|H]]]]; destruct H as (ds & Hl & Hf & E); exists ds; (split; [lia|auto]).
  - intros (ds & Hl & Hf & E). destruct (length ds) as [|[|[|[|[|n]]]]] eqn:H; [eauto 12..|lia].
Qed.

(* a list of at most four digits in 1..5 is the digits of a node, ... *)
Lemma digits_node ds :
  (length ds <= 4)%nat -> Forall (fun d => 1 <= d <= 5) ds ->
  In (of_digits ds) all_nodes /\ digits_of 8 (of_digits ds) = ds.
Proof.
  intros L F. split; [apply all_nodes_digits; eauto|].
  apply digits_of_of_digits; [revert F; apply Forall_impl; lia|lia].
Qed.

(* ... and every node is the value of such a list, its digits *)
Lemma node_digits a :
  In a all_nodes ->
  (length (digits_of 8 a) <= 4)%nat /\ Forall (fun d => 1 <= d <= 5) (digits_of 8 a)
  /\ of_digits (digits_of 8 a) = a.
Proof.
  intro H. apply all_nodes_digits in H. destruct H as (ds & L & F & ->).
  rewrite (proj2 (digits_node ds L F)). auto.
Qed.

(* the ancestors of a node are nodes: the values of the prefixes of its digits *)
Lemma prefix_node d x r :
  In d all_nodes -> digits_of 8 d = x ++ r ->
  In (of_digits x) all_nodes /\ digits_of 8 (of_digits x) = x.
Proof.
  intros Hd E. destruct (node_digits d Hd) as (L & F & _). rewrite E, app_length in L.
  rewrite E in F. apply Forall_app in F. apply digits_node; [lia|tauto].
Qed.

Lemma parent_digits s :
  In s all_nodes ->
  In (parent_of s) all_nodes /\ digits_of 8 (parent_of s) = removelast (digits_of 8 s).
Proof.
  intro H. destruct (node_digits s H) as (L & F & _).
  apply digits_node; [rewrite removelast_length; lia|apply Forall_removelast, F].
Qed.

(* that digit, the child number under the parent *)
Lemma last_digit s :
  In s all_nodes -> digits_of 8 s <> [] -> 1 <= last (digits_of 8 s) 0 <= 5.
Proof.
  intros H Hne. destruct (node_digits s H) as (_ & F & _).
  rewrite (app_removelast_last 0 Hne) in F. apply Forall_app in F. exact (Forall_inv (proj2 F)).
Qed.

Theorem node_spec_digits a :
  node_specb a = true <->
  exists ds, (length ds <= 4)%nat /\ Forall (fun d => 1 <= d <= 5) ds /\ a = of_digits ds.
Proof.
  unfold node_specb. split.
  - rewrite andb_true_iff, Nat.leb_le, digits15_spec. intros [Hl Hf]. exists (digits_of 8 a).
    repeat split; [exact Hl|exact Hf|]. symmetry. apply of_digits_digits_of. lia.
  - intros (ds & Hl & Hf & ->).
    rewrite (proj2 (digits_node ds Hl Hf)), andb_true_iff, Nat.leb_le, digits15_spec. auto.
Qed.

Lemma all_nodes_spec a : In a all_nodes <-> node_specb a = true.
Proof. rewrite all_nodes_digits. symmetry. apply node_spec_digits. Qed.

(* is_address_valid is: one of the 781 nodes (0 excluded by the code's callers) or a multicast placeholder *)
Theorem valid_iff a :
  is_address_valid a = true <->
  In a all_nodes \/ a = 64 \/ a = 8 \/ a = 512.
Proof.
  rewrite valid_spec_bool, orb_true_iff, all_nodes_spec.
  unfold reservedb. rewrite !orb_true_iff, !N.eqb_eq. tauto.
Qed.

Example valid_examples :
  is_address_valid 0 = true /\ is_address_valid 2340 = true /\ is_address_valid 64 = true
  /\ is_address_valid 4681 = false /\ is_address_valid 37449 = false /\ is_address_valid 56 = false.
Proof. vm_compute. repeat split. Qed.
