(* HeaderFacts.v -- the header / frame / fragment wire formats (C11): codec round trips for all integer field values,
   the fragment table, and an independent receiver specification that rebuilds every message. *)
From Coq Require Import ZArith NArith List Bool Lia.
From NRF Require Import Base.Lists Net.Header.
Import ListNotations.
Local Open Scope Z_scope.

Lemma byte_land v : Z.of_N (byte v) = Z.land v 255.
Proof. apply Z2N.id, Z.land_nonneg. right. discriminate. Qed.

Lemma byte_spec v : Z.of_N (byte v) = v mod 256.
Proof. rewrite byte_land. exact (Z.land_ones v 8 ltac:(discriminate)). Qed.

Lemma byte_lt v : (byte v < 256)%N.
Proof.
  apply N2Z.inj_lt. rewrite byte_spec. apply Z.mod_pos_bound. reflexivity.
Qed.

Lemma byte_small v : 0 <= v < 256 -> Z.of_N (byte v) = v.
Proof. intros H. rewrite byte_spec. apply Z.mod_small. exact H. Qed.

Lemma le16_spec v :
  map Z.of_N (le16 v) = [v mod 256; (v / 256) mod 256].
Proof.
  unfold le16. cbn [map]. rewrite !byte_spec. rewrite Z.shiftr_div_pow2 by lia. reflexivity.
Qed.

Lemma un16_le16 v : un16 (byte v) (byte (Z.shiftr v 8)) = Z.land v 65535.
Proof.
  unfold un16. rewrite !byte_spec, Z.shiftr_div_pow2 by lia.
  change 65535 with (Z.ones 16). rewrite Z.land_ones by lia.
  symmetry. exact (Z.rem_mul_r v 256 256 ltac:(lia) ltac:(lia)).
Qed.

Lemma hdr_pack_length h b : hdr_pack h = Some b -> length b = 8%nat /\ Forall (fun x => (x < 256)%N) b.
Proof.
  unfold hdr_pack. destruct (type_code (message_type h)) as [t|]; [|discriminate].
  intros H. inversion H. repeat constructor; apply byte_lt.
Qed.

Lemma hdr_pack_defined h : type_code (message_type h) <> None -> exists b, hdr_pack h = Some b.
Proof.
  unfold hdr_pack. destruct (type_code (message_type h)); [eexists; reflexivity|contradiction].
Qed.

Lemma hdr_unpack_pack h b rest :
  hdr_pack h = Some b -> hdr_unpack (b ++ rest) = mask_hdr h.
Proof.
  unfold hdr_pack, mask_hdr. destruct (type_code (message_type h)) as [t|]; [|discriminate].
  intros H. inversion H. cbn [app hdr_unpack].
  (* a field masked to 12 or 16 bits is its own low 16 bits *)
  rewrite !un16_le16, <- !Z.land_assoc, !byte_land. reflexivity.
Qed.

Lemma hdr_unpack_short b : hdr_unpack b = None <-> (length b < 8)%nat.
Proof.
  do 8 (destruct b as [|? b]; [cbn; split; [intros _; lia|reflexivity]|]).
  cbn. split; [discriminate|lia].
Qed.

(* in-range fields survive unchanged (12-bit addresses incl. reserved ones, 16-bit ids) *)
Lemma mask_hdr_id h t :
  0 <= from_node h < 4096 -> 0 <= to_node h < 4096 -> 0 <= frame_id h < 65536 ->
  message_type h = IntT t -> 0 <= t < 256 -> 0 <= reserved h < 256 ->
  mask_hdr h = Some h.
Proof.
  intros H1 H2 H3 H4 H5 H6. unfold mask_hdr. rewrite H4. cbn.
  change 4095 with (Z.ones 12). change 65535 with (Z.ones 16). change 255 with (Z.ones 8).
  rewrite !Z.land_ones by lia. rewrite !Z.mod_small by lia.
  destruct h; cbn in *. subst. reflexivity.
Qed.

Lemma str_type_packs_as_codepoint f t i c rest r :
  mask_hdr (mkHeader f t i (StrT (c :: rest)) r) = mask_hdr (mkHeader f t i (IntT c) r).
Proof. reflexivity. Qed.

Lemma frame_unpack_pack f b :
  frame_pack f = Some b ->
  frame_unpack b = option_map (fun h => mkFrame h (msg f)) (mask_hdr (hdr f))
  /\ length b = frame_len f.
Proof.
  unfold frame_pack. destruct (hdr_pack (hdr f)) as [hb|] eqn:Hp; [|discriminate].
  intros H. inversion H. destruct (hdr_pack_length _ _ Hp) as [Hl _].
  unfold frame_unpack. rewrite (hdr_unpack_pack _ _ (msg f) Hp), app_length, Hl.
  split; [|reflexivity].
  rewrite <- Hl, skipn_app_exact. reflexivity.
Qed.

Local Open Scope nat_scope.

(* frag_total n is the number of 24-byte chunks that cover n bytes; everything else
   about the count follows from these two inequalities by lia *)
Lemma frag_total_bounds n : n <= 24 * frag_total n < n + 24.
Proof.
  unfold frag_total, MAX_FRAG_SIZE.
  pose proof (Nat.div_mod n 24 ltac:(lia)). pose proof (Nat.mod_upper_bound n 24 ltac:(lia)).
  destruct (Nat.eqb_spec (n mod 24) 0); lia.
Qed.

Lemma frag_total_ceil n : frag_total n = (n + 23) / 24.
Proof.
  pose proof (frag_total_bounds n).
  apply (Nat.div_unique _ _ _ (n + 23 - 24 * frag_total n)); lia.
Qed.

Lemma frag_header_first h t T : 2 <= T ->
  frag_header h t T 0
  = mkHeader (from_node h) (to_node h) (frame_id h) (IntT MSG_FRAG_FIRST) (Z.of_nat T).
Proof.
  intros H. unfold frag_header. destruct (Nat.eqb_spec 0 (T - 1)); [lia|].
  rewrite Nat.sub_0_r. reflexivity.
Qed.

Lemma frag_header_more h t T i : 0 < i < T - 1 ->
  frag_header h t T i
  = mkHeader (from_node h) (to_node h) (frame_id h) (IntT MSG_FRAG_MORE) (Z.of_nat (T - i)).
Proof.
  intros H. unfold frag_header.
  destruct (Nat.eqb_spec i (T - 1)); [lia|]. destruct (Nat.eqb_spec i 0); [lia|]. reflexivity.
Qed.

Lemma frag_header_last h t T :
  frag_header h t T (T - 1) = mkHeader (from_node h) (to_node h) (frame_id h) (IntT MSG_FRAG_LAST) t.
Proof. unfold frag_header. rewrite Nat.eqb_refl. reflexivity. Qed.

(* every slice, the last one included, is a plain 24-byte chunk once T chunks cover m *)
Lemma frag_slice_chunk (m : list N) T i : length m <= 24 * T ->
  frag_slice m T i = firstn 24 (skipn (24 * i) m).
Proof.
  intros HT. unfold frag_slice, MAX_FRAG_SIZE. destruct (Nat.eqb_spec i (T - 1)); [|reflexivity].
  symmetry. apply firstn_all2. rewrite skipn_length. lia.
Qed.

(* the bytes received once fragments 0..k are in *)
Lemma prefix_slice (m : list N) T k : length m <= 24 * T ->
  firstn (24 * k) m ++ frag_slice m T k = firstn (24 * S k) m.
Proof. intros HT. rewrite frag_slice_chunk, firstn_chunk by assumption. f_equal. lia. Qed.

Lemma fragment_count h t m : length (fragment_frames h t m) = frag_total (length m).
Proof. unfold fragment_frames. rewrite map_length, seq_length. reflexivity. Qed.

Definition nth_frag (h : header) (t : Z) (m : list N) (i : nat) : frame :=
  mkFrame (frag_header h t (frag_total (length m)) i) (frag_slice m (frag_total (length m)) i).

Lemma fragment_nth h t m i : i < frag_total (length m) ->
  nth_error (fragment_frames h t m) i = Some (nth_frag h t m i).
Proof.
  intros Hi. unfold fragment_frames. rewrite nth_error_map.
  rewrite (nth_error_nth' _ 0) by (rewrite seq_length; exact Hi).
  rewrite seq_nth by exact Hi. reflexivity.
Qed.

Lemma fragment_slice_length h t m i : i < frag_total (length m) ->
  1 <= length (msg (nth_frag h t m i)) <= 24.
Proof.
  intros Hi. pose proof (frag_total_bounds (length m)). cbn [nth_frag msg].
  rewrite frag_slice_chunk, firstn_length, skipn_length by lia. lia.
Qed.

Lemma fragment_frame_size h t m i b : i < frag_total (length m) ->
  frame_pack (nth_frag h t m i) = Some b -> 9 <= length b <= 32.
Proof.
  intros Hi Hp. destruct (frame_unpack_pack _ _ Hp) as [_ Hl]. rewrite Hl. unfold frame_len.
  pose proof (fragment_slice_length h t m i Hi). lia.
Qed.

Theorem fragments_concat h t m : concat (map msg (fragment_frames h t m)) = m.
Proof.
  pose proof (frag_total_bounds (length m)).
  unfold fragment_frames. rewrite map_map.
  rewrite (map_ext_in _ (fun i => firstn 24 (skipn (24 * i) m))).
  - rewrite concat_chunks. apply firstn_all2, H.
  - intros i _. apply frag_slice_chunk; lia.
Qed.

Local Open Scope Z_scope.

Lemma tm_step_first st fr to id r body :
  tm_step st (mkFrame (mkHeader fr to id (IntT MSG_FRAG_FIRST) r) body)
  = (Some (mkTm id r fr body), None).
Proof. reflexivity. Qed.

Lemma tm_step_more id c fr buf fr' to r body : 1 < c -> r = c - 1 ->
  tm_step (Some (mkTm id c fr buf)) (mkFrame (mkHeader fr' to id (IntT MSG_FRAG_MORE) r) body)
  = (Some (mkTm id r fr (buf ++ body)), None).
Proof.
  intros H ->. cbn. rewrite (proj2 (Z.ltb_lt _ _) H), !Z.eqb_refl. reflexivity.
Qed.

Lemma tm_step_last id fr buf fr' to t body :
  tm_step (Some (mkTm id 2 fr buf)) (mkFrame (mkHeader fr' to id (IntT MSG_FRAG_LAST) t) body)
  = (None, Some (fr, t, buf ++ body)).
Proof. cbn. rewrite Z.eqb_refl. reflexivity. Qed.

(* with fragments 0..k-1 in and n to come, the pending counter is n + 1 *)
Lemma tm_tail h t m : let T := frag_total (length m) in
  forall n k c, (k + n = T)%nat -> (1 <= k)%nat -> n <> 0%nat -> c = Z.of_nat n + 1 ->
  tm_run (Some (mkTm (frame_id h) c (from_node h) (firstn (24 * k) m)))
         (map (nth_frag h t m) (seq k n))
  = [(from_node h, t, m)].
Proof.
  intros T. pose proof (frag_total_bounds (length m)) as HT.
  induction n as [|n IH]; intros k c Hk Hk1 Hn ->; [lia|].
  cbn [seq map tm_run]. unfold nth_frag at 1. fold T. destruct n as [|n].
  - replace k with (T - 1)%nat by lia.
    rewrite frag_header_last, tm_step_last, prefix_slice, firstn_all2 by lia. reflexivity.
  - rewrite frag_header_more, tm_step_more, prefix_slice by lia. apply IH; lia.
Qed.

Theorem tm_reassembles h t m : (24 < length m)%nat ->
  tm_run None (fragment_frames h t m) = [(from_node h, t, m)].
Proof.
  intros Hn. pose proof (frag_total_bounds (length m)) as HT.
  change (fragment_frames h t m) with (map (nth_frag h t m) (seq 0 (frag_total (length m)))).
  destruct (frag_total (length m)) as [|n] eqn:ET; [lia|].
  cbn [seq map tm_run]. unfold nth_frag at 1.
  rewrite ET, frag_header_first, tm_step_first, frag_slice_chunk by lia.
  (* the first chunk, firstn 24 (skipn (24 * 0) m), is firstn (24 * 1) m by computation *)
  apply (tm_tail h t m n 1); lia.
Qed.

Example fragments_example :
  let h := mkHeader 1 2 7 (IntT 65) 0 in
  let m := map N.of_nat (seq 0 60) in
  map (fun f => (message_type (hdr f), reserved (hdr f), length (msg f))) (fragment_frames h 65 m)
  = [(IntT 148, 3, 24%nat); (IntT 149, 2, 24%nat); (IntT 150, 65, 12%nat)]
  /\ tm_run None (fragment_frames h 65 m) = [(1, 65, m)].
Proof. vm_compute. split; reflexivity. Qed.
