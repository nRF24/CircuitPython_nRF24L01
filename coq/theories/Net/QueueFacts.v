(* QueueFacts.v -- the frame queues (C12; FragFacts.v builds on it): one case analysis of `enqueue` in the order of the
   code's tests; both queue classes act on the underlying plain queue while no fragment-typed frame is enqueued;
   histories through a ghost that records what was accepted and what was handed out. *)
From Coq Require Import ZArith NArith List Bool Lia.
From NRF Require Import Base.Lists Net.Header Net.Queue Net.QueueRun.
Import ListNotations.
Local Open Scope Z_scope.

(* the duplicate key of a stored (masked) header *)
Definition hkey (h : header) : Z * Z * option Z :=
  (from_node h, frame_id h, match message_type h with IntT z => Some z | StrT _ => None end).

Definition int_typed (f : frame) : Prop := exists z, message_type (hdr f) = IntT z.

Lemma copy_frame_int f c : copy_frame f = Some c -> int_typed c.
Proof.
  unfold copy_frame, mask_hdr. destruct (type_code _); [|discriminate].
  intros H; inversion H. eexists; reflexivity.
Qed.

Lemma copy_frame_msg f c : copy_frame f = Some c -> msg c = msg f.
Proof.
  unfold copy_frame. destruct (mask_hdr _); [|discriminate]. intros H; inversion H; reflexivity.
Qed.

(* one int-typed side is enough: against it a str-typed header has neither the same key nor the
   same hkey *)
Lemma same_key_hkey a b :
  (exists z, message_type b = IntT z) -> same_key a b = true <-> hkey a = hkey b.
Proof.
  intros [y Hy]. unfold same_key, hkey, mtype_eqb. rewrite Hy. destruct (message_type a) as [x|l].
  - rewrite !andb_true_iff, !Z.eqb_eq. split.
    + intros [[H1 H2] H3]. congruence.
    + intros H. inversion H. auto.
  - rewrite andb_false_r. split; discriminate.
Qed.

Definition stored_ok (q : queue) : Prop := Forall int_typed (qframes q).
Definition keys (q : queue) : list (Z * Z * option Z) := map (fun f => hkey (hdr f)) (qframes q).

Lemma existsb_same_key q nf :
  int_typed nf ->
  existsb (fun g => same_key (hdr g) (hdr nf)) (qframes q) = true <-> In (hkey (hdr nf)) (keys q).
Proof.
  intros Hn. unfold keys. rewrite existsb_exists, in_map_iff.
  split; intros [g [H1 H2]]; exists g; split; trivial; apply (same_key_hkey _ _ Hn); assumption.
Qed.

(* what one enqueue does: the three tests of FrameQueue.enqueue, in the code's order *)
Inductive enq_case (q : queue) (f : frame) : option (bool * queue) -> Prop :=
| EnqFull : qmax q <= Z.of_nat (qlen q) -> enq_case q f (Some (false, q))
| EnqRaise : Z.of_nat (qlen q) < qmax q -> copy_frame f = None -> enq_case q f None
| EnqDup c : Z.of_nat (qlen q) < qmax q -> copy_frame f = Some c ->
    In (hkey (hdr c)) (keys q) -> enq_case q f (Some (false, q))
| EnqNew c : Z.of_nat (qlen q) < qmax q -> copy_frame f = Some c ->
    ~ In (hkey (hdr c)) (keys q) -> enq_case q f (Some (true, mkQ (qmax q) (qframes q ++ [c]))).

Lemma enqueueP q f : enq_case q f (enqueue q f).
Proof.
  unfold enqueue. fold (qlen q).
  destruct (Z.leb_spec (qmax q) (Z.of_nat (qlen q))) as [Hfull|Hroom]; [exact (EnqFull _ _ Hfull)|].
  destruct (copy_frame f) as [c|] eqn:Hc; [|exact (EnqRaise _ _ Hroom Hc)].
  pose proof (existsb_same_key q c (copy_frame_int _ _ Hc)) as Hk.
  destruct (existsb _ _).
  - apply (EnqDup _ _ c Hroom Hc), Hk. reflexivity.
  - apply (EnqNew _ _ c Hroom Hc). intros H. apply Hk in H. discriminate.
Qed.

(* for inversion when the result is known *)
Lemma enqueue_some q f r q' : enqueue q f = Some (r, q') -> enq_case q f (Some (r, q')).
Proof. intros H. rewrite <- H. exact (enqueueP q f). Qed.

Lemma enqueue_spec q f r q' :
  stored_ok q -> enqueue q f = Some (r, q') ->
  exists c, copy_frame f = Some c \/ (r = false /\ qmax q <= Z.of_nat (qlen q)) .
Proof.
  intros _ H. apply enqueue_some in H.
  inversion H; subst; [exists f|eexists|eexists]; eauto.
Qed.

Lemma enqueue_total q f c : copy_frame f = Some c -> enqueue q f <> None.
Proof. intros Hc. destruct (enqueueP q f); congruence. Qed.

Lemma enqueue_Forall (P : frame -> Prop) q f r q' :
  enqueue q f = Some (r, q') ->
  Forall P (qframes q) -> (forall c, copy_frame f = Some c -> P c) -> Forall P (qframes q').
Proof.
  intros H HP Hc. apply enqueue_some in H. inversion H; subst; trivial.
  apply Forall_app. split; [exact HP|]. constructor; [auto|constructor].
Qed.

Lemma dequeue_frames q o q' : dequeue q = (o, q') ->
  qframes q = match o with Some f => [f] | None => [] end ++ qframes q'.
Proof.
  unfold dequeue. destruct (qframes q) eqn:E; intros H; inversion H; subst;
    [symmetry; exact E|reflexivity].
Qed.

Definition QInv (q : queue) : Prop := stored_ok q /\ NoDup (keys q).

Lemma QInv_empty : QInv empty_queue.
Proof. split; constructor. Qed.

Lemma enqueue_inv q f r q' : QInv q -> enqueue q f = Some (r, q') -> QInv q'.
Proof.
  intros [Hs Hn] H. split; [exact (enqueue_Forall _ _ _ _ _ H Hs (copy_frame_int f))|].
  apply enqueue_some in H. inversion H; subst; trivial.
  cbn. rewrite map_app. apply NoDup_snoc; assumption.
Qed.

Lemma dequeue_inv q o q' : QInv q -> dequeue q = (o, q') -> QInv q'.
Proof.
  intros [Hs Hn] H. apply dequeue_frames in H. unfold stored_ok, keys in *. rewrite H in *.
  destruct o; [|split; assumption]. inversion Hs; inversion Hn. split; assumption.
Qed.

Lemma set_max_inv q m : QInv q -> QInv (set_max q m).
Proof. intros H; exact H. Qed.

Definition not_frag (f : frame) : Prop := is_frag_type (message_type (hdr f)) = false.

Definition hist_ok (ops : list qop) : Prop :=
  Forall (fun o => match o with QEnq f => not_frag f | _ => True end) ops.

Lemma frag_enqueue_plain q f :
  not_frag f ->
  frag_enqueue q f =
  match enqueue (base q) f with
  | None => None
  | Some (r, b') => Some (r, mkFQ b' (cache q), false)
  end.
Proof. intros H. unfold frag_enqueue. rewrite H. reflexivity. Qed.

(* histories: a ghost-instrumented run over the node's queue attribute; acc = copies accepted so far (in order),
   out = frames handed out by dequeue.  gstep takes an enqueue as accepted when the underlying queue grew. *)
Record ghost := mkG { g_st : qstate; g_acc : list frame; g_out : list frame }.

Definition gstep (g : ghost) (o : qop) : ghost :=
  let s' := fst (qstep (g_st g) o) in
  match o with
  | QEnq f =>
    match copy_frame f with
    | Some c =>
      if Nat.ltb (qlen (st_base (g_st g))) (qlen (st_base s'))
      then mkG s' (g_acc g ++ [c]) (g_out g) else mkG s' (g_acc g) (g_out g)
    | None => mkG s' (g_acc g) (g_out g)
    end
  | QDeq =>
    match qframes (st_base (g_st g)) with
    | f :: _ => mkG s' (g_acc g) (g_out g ++ [f])
    | [] => mkG s' (g_acc g) (g_out g)
    end
  | _ => mkG s' (g_acc g) (g_out g)
  end.

Definition grun (g : ghost) (ops : list qop) : ghost := fold_left gstep ops g.

(* what an operation does to the underlying plain queue (st_base_qstep: for both queue classes and the toggle between
   them, as long as no fragment-typed frame is enqueued) *)
Definition bstep (q : queue) (o : qop) : queue :=
  match o with
  | QEnq f => match enqueue q f with Some (_, q') => q' | None => q end
  | QDeq => snd (dequeue q)
  | QSetMax m => set_max q m
  | _ => q
  end.

Definition op_ok (o : qop) : Prop := match o with QEnq f => not_frag f | _ => True end.

Lemma st_base_qstep s o : op_ok o -> st_base (fst (qstep s o)) = bstep (st_base s) o.
Proof.
  intros Ho. destruct o as [f| | | |m|b], s as [q|q]; cbn; trivial.
  - destruct (enqueue q f) as [[r q']|]; reflexivity.
  - rewrite (frag_enqueue_plain q f Ho). destruct (enqueue (base q) f) as [[r q']|]; reflexivity.
  - destruct (dequeue q); reflexivity.
  - destruct (dequeue (base q)); reflexivity.
  - destruct b; [destruct q|]; reflexivity.
  - destruct b; [|destruct q as [[]]]; reflexivity.
Qed.

Lemma bstep_inv q o : QInv q -> QInv (bstep q o).
Proof.
  intros Hq. destruct o as [f| | | | |]; cbn; trivial.
  - destruct (enqueue q f) as [[r q']|] eqn:E; [exact (enqueue_inv _ _ _ _ Hq E)|exact Hq].
  - exact (dequeue_inv q _ _ Hq (surjective_pairing _)).
Qed.

Lemma gstep_st g o : g_st (gstep g o) = fst (qstep (g_st g) o).
Proof.
  unfold gstep. destruct o; try reflexivity.
  - destruct (copy_frame f); [destruct (_ <? _)%nat|]; reflexivity.
  - destruct (qframes _); reflexivity.
Qed.

Definition GInv (g : ghost) : Prop :=
  QInv (st_base (g_st g)) /\ g_acc g = g_out g ++ qframes (st_base (g_st g)).

Lemma gstep_inv g o : op_ok o -> GInv g -> GInv (gstep g o).
Proof.
  intros Ho [Hq Ha]. unfold GInv. rewrite gstep_st, (st_base_qstep _ _ Ho).
  split; [exact (bstep_inv _ o Hq)|].
  unfold gstep. rewrite (st_base_qstep _ _ Ho).
  set (q := st_base (g_st g)) in *. destruct o as [f| | | | |]; try exact Ha; cbn [bstep].
  - (* the ghost sees an accepted copy as a longer queue *)
    destruct (enqueueP q f) as [_|_ Hc|c _ Hc _|c _ Hc _];
      rewrite ?Hc, ?Nat.ltb_irrefl; [destruct (copy_frame f); exact Ha|exact Ha|exact Ha|].
    unfold qlen. cbn [qframes]. rewrite app_length, (proj2 (Nat.ltb_lt _ _)) by (cbn; lia).
    cbn. rewrite Ha, app_assoc. reflexivity.
  - unfold dequeue. destruct (qframes q) eqn:E; cbn; rewrite ?E; [exact Ha|].
    rewrite Ha, <- app_assoc. reflexivity.
Qed.

Lemma grun_inv ops : forall g, hist_ok ops -> GInv g -> GInv (grun g ops).
Proof.
  induction ops as [|o ops IH]; intros g Hh Hg; [exact Hg|].
  inversion Hh. apply IH; [assumption|]. apply gstep_inv; assumption.
Qed.

Definition g0 (frag : bool) : ghost :=
  mkG (if frag then Frag empty_fragq else Plain empty_queue) [] [].

Lemma GInv_g0 b : GInv (g0 b).
Proof. destruct b; split; try apply QInv_empty; reflexivity. Qed.

(* non-vacuity: a concrete history *)
Example fifo_example :
  let f k := mkFrame (mkHeader k 0 10 (IntT 65) 0) [1%N] in
  let g := grun (g0 true) [QEnq (f 1); QEnq (f 2); QEnq (f 1); QDeq; QToggle false; QEnq (f 3)] in
  g_out g = [f 1] /\ qframes (st_base (g_st g)) = [f 2; f 3].
Proof. vm_compute. split; reflexivity. Qed.
