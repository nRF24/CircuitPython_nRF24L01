(* DhcpFacts.v -- the master's lease table (C16, C17): the Python dict operations on the association list, the slot
   scan of _dhcp() and what it hands out, the file round trips, and "one address, one ID" over every history of table
   events. *)
From Coq Require Import ZArith NArith List Bool Lia Permutation.
From NRF Require Import Base.Lists Drv.RF24 Net.Addr Net.AddrFacts Net.Mesh.
Import ListNotations.
Local Open Scope Z_scope.

Definition keys (d : list (Z * Z)) : list Z := map fst d.

(* every ID holds one lease; no address is held by two IDs *)
Definition Inj (d : list (Z * Z)) : Prop :=
  NoDup (keys d) /\ forall k1 k2 v, In (k1, v) d -> In (k2, v) d -> k1 = k2.

Definition fresh_for (d : list (Z * Z)) (k v : Z) : Prop := forall k', In (k', v) d -> k' = k.

Lemma nodup_keys_fun d k v1 v2 : NoDup (keys d) -> In (k, v1) d -> In (k, v2) d -> v1 = v2.
Proof. intros Hn H1 H2. injection (NoDup_map_inj fst d _ _ Hn H1 H2 eq_refl). auto. Qed.

(* the two lookups return an entry of the table, or nothing when there is none *)
Lemma dict_get_spec d k :
  match dict_get d k with Some v => In (k, v) d | None => forall v, ~ In (k, v) d end.
Proof.
  induction d as [|[k0 v0] t IH]; cbn [dict_get In]; [intros v []|].
  destruct (Z.eqb_spec k0 k) as [->|E]; [auto|]. destruct (dict_get t k); [auto|].
  intros v [H|H]; [congruence|exact (IH v H)].
Qed.

Lemma find_val_spec d v :
  match dict_find_val d v with Some k => In (k, v) d | None => forall k, ~ In (k, v) d end.
Proof.
  induction d as [|[k0 v0] t IH]; cbn [dict_find_val In]; [intros k []|].
  destruct (Z.eqb_spec v0 v) as [->|E]; [auto|]. destruct (dict_find_val t v); [auto|].
  intros k [H|H]; [congruence|exact (IH k H)].
Qed.

Lemma dict_del_incl d k : incl (dict_del d k) d.
Proof.
  intro x. induction d as [|[k0 v0] t IH]; cbn [dict_del In]; [tauto|].
  destruct (k0 =? k); cbn [In]; tauto.
Qed.

Lemma in_dict_del_old d k k' v' : k' <> k -> In (k', v') d -> In (k', v') (dict_del d k).
Proof.
  intros Hne. induction d as [|[k0 v0] t IH]; cbn [dict_del In]; [intros []|].
  destruct (Z.eqb_spec k0 k) as [->|E]; cbn [In]; intros [H|H]; auto. congruence.
Qed.

Lemma nodup_dict_del d k : NoDup (keys d) -> NoDup (keys (dict_del d k)) /\ ~ In k (keys (dict_del d k)).
Proof.
  unfold keys. induction d as [|[k0 v0] t IH]; cbn [dict_del map fst]; [split; [constructor|intros []]|].
  rewrite NoDup_cons_iff. intros [Hn Ht]. destruct (Z.eqb_spec k0 k) as [->|E]; [auto|].
  (* k0 is not among the keys that are left: they were keys of t *)
  cbn [map fst In]. rewrite NoDup_cons_iff. pose proof (incl_map fst (dict_del_incl t k) k0). tauto.
Qed.

(* writing k puts the new entry where the old one stood, or at the end if there was none: up to order,
   the table is the new entry and what deleting k leaves.  The facts about dict_set follow from those
   about dict_del. *)
Lemma dict_set_del d k v : Permutation (dict_set d k v) ((k, v) :: dict_del d k).
Proof.
  induction d as [|[k0 v0] t IH]; cbn [dict_set dict_del]; [reflexivity|].
  destruct (k0 =? k); [reflexivity|]. rewrite IH. apply perm_swap.
Qed.

Lemma dict_set_incl d k v : incl (dict_set d k v) ((k, v) :: d).
Proof.
  intros x H. apply (Permutation_in x (dict_set_del d k v)) in H.
  destruct H as [H|H]; [left; exact H|right; exact (dict_del_incl d k x H)].
Qed.

Lemma in_dict_set_new d k v : In (k, v) (dict_set d k v).
Proof. apply (Permutation_in _ (Permutation_sym (dict_set_del d k v))). left. reflexivity. Qed.

Lemma in_dict_set_old d k v k' v' : k' <> k -> In (k', v') d -> In (k', v') (dict_set d k v).
Proof.
  intros Hne Hin. apply (Permutation_in _ (Permutation_sym (dict_set_del d k v))).
  right. exact (in_dict_del_old d k k' v' Hne Hin).
Qed.

Lemma nodup_dict_set d k v : NoDup (keys d) -> NoDup (keys (dict_set d k v)).
Proof.
  intro Hn. apply (Permutation_NoDup (Permutation_map fst (Permutation_sym (dict_set_del d k v)))).
  constructor; apply (nodup_dict_del d k Hn).
Qed.

Lemma inj_dict_set d k v : Inj d -> fresh_for d k v -> Inj (dict_set d k v).
Proof.
  intros [Hn Hi] Hf. split; [exact (nodup_dict_set d k v Hn)|].
  intros k1 k2 w H1 H2. apply dict_set_incl in H1, H2. destruct H1 as [H1|H1], H2 as [H2|H2].
  - congruence.
  - injection H1 as <- <-. symmetry. exact (Hf _ H2).
  - injection H2 as <- <-. exact (Hf _ H1).
  - exact (Hi _ _ _ H1 H2).
Qed.

Lemma inj_dict_del d k : Inj d -> Inj (dict_del d k).
Proof.
  intros [Hn Hi]. split; [exact (proj1 (nodup_dict_del d k Hn))|].
  intros k1 k2 w H1 H2. exact (Hi _ _ _ (dict_del_incl _ _ _ H1) (dict_del_incl _ _ _ H2)).
Qed.

Lemma inj_release d a : Inj d -> Inj (snd (release_addr d a)).
Proof.
  intro HI. unfold release_addr. destruct (dict_find_val d a); [apply inj_dict_del|]; exact HI.
Qed.

(* a release drops exactly the entries that hold a (at most one: that of the ID the lookup finds) *)
Lemma release_spec d a k v : Inj d -> In (k, v) (snd (release_addr d a)) <-> In (k, v) d /\ v <> a.
Proof.
  intros [Hn Hi]. unfold release_addr. generalize (find_val_spec d a).
  destruct (dict_find_val d a) as [k0|]; cbn [snd]; intro F.
  2: { split; [intro H; split; [exact H|intros ->; exact (F k H)]|tauto]. }
  split.
  - intro Hin. pose proof (dict_del_incl _ _ _ Hin) as Hd. split; [exact Hd|]. intros ->.
    (* only k0 held a, and k0 has no entry left *)
    rewrite (Hi _ _ _ Hd F) in Hin. exact (proj2 (nodup_dict_del d k0 Hn) (in_map fst _ _ Hin)).
  - intros [Hin Hne]. apply in_dict_del_old; [|exact Hin]. intros ->.
    (* k0 would hold a and v: two leases for one ID *)
    exact (Hne (nodup_keys_fun d k0 v a Hn Hin F)).
Qed.

Lemma release_frees d a : Inj d -> forall k, ~ In (k, a) (snd (release_addr d a)).
Proof. intros HI k Hin. exact (proj2 (proj1 (release_spec d a k a HI) Hin) eq_refl). Qed.

(* set_address(..., search_by_address=False) writes the entry; with True it releases the address first *)
Lemma set_address_by_id d k v : set_address d k v false = dict_set d k v.
Proof. reflexivity. Qed.

Lemma set_address_by_addr d k v : set_address d k v true = dict_set (snd (release_addr d v)) k v.
Proof. unfold set_address, release_addr. destruct (dict_find_val d v); reflexivity. Qed.

Lemma inj_set_address_by_addr d k v : Inj d -> Inj (set_address d k v true).
Proof.
  intro HI. rewrite set_address_by_addr. apply inj_dict_set; [exact (inj_release d v HI)|].
  intros k' Hin. destruct (release_frees d v HI k' Hin).
Qed.

Lemma held_by_other d rid a :
  existsb (fun kv => (snd kv =? a) && negb (fst kv =? rid)) d = true <-> exists k, k <> rid /\ In (k, a) d.
Proof.
  rewrite existsb_exists. setoid_rewrite andb_true_iff. setoid_rewrite negb_true_iff.
  setoid_rewrite Z.eqb_eq. setoid_rewrite Z.eqb_neq.
  split; [intros ([k v] & Hin & <- & Hk); eauto|intros (k & Hk & Hin); exists (k, a); auto].
Qed.

Lemma if_orb {A} (a b : bool) (x y : A) : (if a then x else if b then x else y) = if a || b then x else y.
Proof. destruct a; reflexivity. Qed.

(* the scan of slots i .. 1 returns a slot that is not the unassigned address and is free for rid,
   or nothing when every slot is the unassigned address or held by another ID *)
Lemma dhcp_pick_spec d rid i via sh :
  match dhcp_pick d rid i via sh with
  | Some a => a <> 2340 /\ fresh_for d rid a /\ exists j, (1 <= j <= i)%nat /\ a = Z.lor via (Z.shiftl (Z.of_nat j) sh)
  | None => forall j, (1 <= j <= i)%nat ->
      let a := Z.lor via (Z.shiftl (Z.of_nat j) sh) in a = 2340 \/ exists k, k <> rid /\ In (k, a) d
  end.
Proof.
  induction i as [|i IH]; cbn [dhcp_pick]; [intros j Hj; lia|].
  set (na := Z.lor via (Z.shiftl (Z.of_nat (S i)) sh)). rewrite if_orb.
  (* the test of slot S i says whether it is the unassigned address or held by another ID *)
  destruct (_ || _) eqn:E; [|rewrite <- not_true_iff_false in E]; rewrite orb_true_iff, Z.eqb_eq, held_by_other in E.
  - (* passed over: the answer is that for slots i .. 1, and slot S i is as a refusal says *)
    destruct (dhcp_pick d rid i via sh) as [a|].
    + destruct IH as (A & B & j & Hj & C). repeat split; auto. exists j. split; [lia|exact C].
    + intros j Hj. destruct (Nat.eq_dec j (S i)) as [->|Hne]; [exact E|apply IH; lia].
  - split; [tauto|]. split; [|exists (S i); split; [lia|reflexivity]].
    intros k' Hin. destruct (Z.eq_dec k' rid) as [|Hne]; [assumption|]. destruct E. eauto.
Qed.

(* the candidates are valid children of the relaying node: a finite sweep over the 781 nodes
   (by valid_iff a valid relay that is not a multicast placeholder is one of them) *)
Definition childb (via : Z) (j : Z) : bool :=
  let a := Z.lor via (Z.shiftl j (3 * level_of 8 via)) in
  negb (level_of 8 via <=? 3)
  || (is_address_valid (Z.to_N a) && negb (a =? 0) && (Z.of_N (parent_of (Z.to_N a)) =? via)
      && negb (a =? 64) && negb (a =? 8) && negb (a =? 512)).

Lemma child_sweep : forall v, In v all_nodes -> forall j, In j (seq 1 5) -> childb (Z.of_N v) (Z.of_nat j) = true.
Proof. (* two nested sweeps, as RouteFacts.descs_ok *)
  intros v Hv. apply forallb_forall. revert v Hv. apply forallb_forall. vm_compute. reflexivity.
Qed.

(* what a scan over child slots of a node of the tree hands out; _dhcp() scans slots 5 .. 1 of the master for a
   direct request and slots 4 .. 1 of the relaying node otherwise *)
Theorem lease_spec d rid i base a :
  0 <= base -> is_address_valid (Z.to_N base) = true -> level_of 8 base <= 3 ->
  base <> 64 -> base <> 8 -> base <> 512 -> (i <= 5)%nat ->
  dhcp_pick d rid i base (3 * level_of 8 base) = Some a ->
  a <> 0 /\ a <> 2340 /\ is_address_valid (Z.to_N a) = true /\ Z.of_N (parent_of (Z.to_N a)) = base
  /\ a <> 64 /\ a <> 8 /\ a <> 512
  /\ fresh_for d rid a.
Proof.
  intros Hb Hval Hl H64 H8 H512 Hi Hp.
  generalize (dhcp_pick_spec d rid i base (3 * level_of 8 base)). rewrite Hp. intros (Hd & Hf & j & Hj & Ha).
  assert (Hin : In (Z.to_N base) all_nodes) by (apply valid_iff in Hval; destruct Hval as [H|H]; [exact H|lia]).
  pose proof (child_sweep _ Hin j ltac:(apply in_seq; lia)) as Hc.
  unfold childb in Hc. rewrite Z2N.id in Hc by exact Hb. rewrite <- Ha in Hc.
  apply Z.leb_le in Hl. rewrite Hl in Hc. cbn [negb orb] in Hc.
  rewrite !andb_true_iff, !negb_true_iff, !Z.eqb_neq, Z.eqb_eq in Hc. tauto.
Qed.

Lemma inj_load_json pairs : forall d, Inj d -> Inj (load_json pairs d).
Proof.
  induction pairs as [|[k v] t IH]; intros d HI; [exact HI|].
  apply IH. apply inj_set_address_by_addr. exact HI.
Qed.

(* the binary file holds the same (id, address) pairs as the JSON file, four bytes each:
   loading it is loading the pairs it parses to *)
Fixpoint parse_bin (fuel : nat) (buf : list N) : list (Z * Z) :=
  match fuel, buf with
  | S k, i :: _ :: lo :: hi :: t => (Z.of_N i, Z.of_N lo + 256 * Z.of_N hi) :: parse_bin k t
  | _, _ => []
  end.

Lemma load_bin_json fuel : forall buf d, load_bin fuel buf d = load_json (parse_bin fuel buf) d.
Proof.
  induction fuel as [|f IH]; intros buf d; [reflexivity|].
  destruct buf as [|i [|p [|lo [|hi t]]]]; try reflexivity. apply IH.
Qed.

Definition in_range (d : list (Z * Z)) : Prop :=
  forall k v, In (k, v) d -> 0 <= k <= 255 /\ 0 <= v <= 65535.

Lemma save_bin_cons k v t :
  0 <= k <= 255 -> 0 <= v <= 65535 ->
  save_bin ((k, v) :: t) =
  match save_bin t with
  | Ok r => Ok (Z.to_N k :: 0%N :: Z.to_N (v mod 256) :: Z.to_N (v / 256) :: r)
  | Exn e => Exn e
  end.
Proof.
  intros Hk Hv. unfold save_bin.
  replace ((0 <=? k) && (k <=? 255)) with true by lia.
  replace ((0 <=? v) && (v <=? 65535)) with true by lia. reflexivity.
Qed.

Lemma save_bin_spec d : in_range d ->
  exists bytes, save_bin d = Ok bytes /\ length bytes = (4 * length d)%nat /\ parse_bin (length d) bytes = d.
Proof.
  induction d as [|[k v] t IH]; intro Hr; [exists []; auto|].
  destruct (Hr k v (or_introl eq_refl)) as [Hk Hv].
  destruct IH as (bs & E & L & P); [intros k' v' H; apply Hr; right; exact H|].
  rewrite (save_bin_cons k v t Hk Hv), E. eexists. split; [reflexivity|]. cbn [length parse_bin]. split; [lia|].
  rewrite P, !Z2N.id by (try apply Z.mod_pos_bound; try apply Z.div_pos; lia).
  do 2 f_equal. pose proof (Z.div_mod v 256). lia.
Qed.

Lemma dict_set_fresh_app d k v : ~ In k (keys d) -> dict_set d k v = d ++ [(k, v)].
Proof.
  induction d as [|[k0 v0] t IH]; cbn [dict_set keys map fst In app]; intro H; [reflexivity|].
  destruct (Z.eqb_spec k0 k); [tauto|]. rewrite IH; [reflexivity|tauto].
Qed.

Lemma set_by_addr_snoc acc k v t : Inj (acc ++ (k, v) :: t) -> set_address acc k v true = acc ++ [(k, v)].
Proof.
  intros [Hn Hi]. unfold keys in Hn. rewrite map_app in Hn. apply NoDup_remove_2 in Hn.
  assert (Hk : ~ In k (keys acc)) by (intro Hin; apply Hn, in_or_app; left; exact Hin).
  unfold set_address. generalize (find_val_spec acc v). destruct (dict_find_val acc v) as [k'|]; intro F.
  - (* k' would hold v as k does later in the list: k' = k, an ID of acc *)
    destruct Hk. rewrite <- (Hi k' k v); [exact (in_map fst _ _ F)| |]; apply in_or_app; [left; exact F|right; left; reflexivity].
  - exact (dict_set_fresh_app acc k v Hk).
Qed.

(* loading a one-to-one list of pairs into the part already loaded appends, entry for entry *)
Lemma load_json_app d : forall acc, Inj (acc ++ d) -> load_json d acc = acc ++ d.
Proof.
  induction d as [|[k v] t IH]; intros acc HI; cbn [load_json]; [rewrite app_nil_r; reflexivity|].
  rewrite (set_by_addr_snoc acc k v t HI), IH; rewrite <- app_assoc; [reflexivity|exact HI].
Qed.

(* histories: what the master's update()/API do to the table, event by event
   (the monadic master in Net/Mesh.v calls dhcp_pick, set_address and release_addr on n_dhcp, the API of
   Net/NodeRun.v the loaders; the differential run compares the table after every call) *)
Inductive event :=
| Request (rid via : Z) (direct : bool)     (* MESH_ADDR_REQUEST with reserved = rid, relayed by via / direct *)
| Release (a : Z)                           (* MESH_ADDR_RELEASE frame or release_address(a) *)
| LoadJson (pairs : list (Z * Z))
| LoadBin (bytes : list N).

Definition table_step (d : list (Z * Z)) (e : event) : list (Z * Z) :=
  match e with
  | Request rid via direct =>
    let via' := if direct then 0 else via in
    let sh := if direct then 0 else 3 * level_of 8 via in
    match dhcp_pick d rid (if direct then 5 else 4) via' sh with
    | Some a => set_address d rid a false
    | None => d
    end
  | Release a => snd (release_addr d a)
  | LoadJson pairs => load_json pairs d
  | LoadBin bytes => load_bin (length bytes) bytes d
  end.

Lemma inj_table_step d e : Inj d -> Inj (table_step d e).
Proof.
  intro HI. destruct e as [rid via direct|a|pairs|bytes]; cbn [table_step].
  - (* one served request: pick + set_address by ID *)
    destruct (dhcp_pick _ _ _ _ _) as [a|] eqn:E; [|exact HI].
    epose proof (dhcp_pick_spec d rid _ _ _) as S. rewrite E in S.
    rewrite set_address_by_id. exact (inj_dict_set d rid a HI (proj1 (proj2 S))).
  - apply inj_release. exact HI.
  - apply inj_load_json. exact HI.
  - rewrite load_bin_json. apply inj_load_json. exact HI.
Qed.

Lemma inj_nil : Inj [].
Proof. split; [constructor|intros ? ? ? []]. Qed.

Theorem inj_history evs : forall d, Inj d -> Inj (fold_left table_step evs d).
Proof.
  induction evs as [|e t IH]; intros d HI; [exact HI|].
  apply IH. apply inj_table_step. exact HI.
Qed.

Definition Reach (d d' : list (Z * Z)) : Prop := exists evs, d' = fold_left table_step evs d.

Lemma reach_refl d : Reach d d.
Proof. exists []. reflexivity. Qed.
Lemma reach_trans d1 d2 d3 : Reach d1 d2 -> Reach d2 d3 -> Reach d1 d3.
Proof. intros [e1 ->] [e2 ->]. exists (e1 ++ e2). symmetry. apply fold_left_app. Qed.
Lemma reach_step d e : Reach d (table_step d e).
Proof. exists [e]. reflexivity. Qed.
Lemma reach_release d a : Reach d (snd (release_addr d a)).
Proof. exact (reach_step d (Release a)). Qed.
Lemma inj_reach d d' : Inj d -> Reach d d' -> Inj d'.
Proof. intros HI [evs ->]. exact (inj_history evs d HI). Qed.
