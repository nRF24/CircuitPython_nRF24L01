(* MasterFacts.v -- what RF24Mesh.update() on the master (Net/Mesh.v update_master) does to the lease table is what
   a history of table events does (DhcpFacts.v table_step): for EVERY stream of received frames, every world and loss
   pattern, every bus.  The network layer never touches the table (KeepFacts.v); update() changes it only through
   release_addr and through dhcp_pick + set_address, which are the events Release and Request.  Hence it keeps the
   table one-to-one (inj_history). *)
From Coq Require Import ZArith NArith List Bool.
From NRF Require Import Drv.RF24 Net.Header Net.Node Net.Mesh Net.DhcpFacts Net.KeepFacts.
Local Open Scope Z_scope.

Section Master.
  Context {bus : Type} (B : busops bus).

  (* the table after m comes from the table before by table events; HistAt: when started in node state n *)
  Definition HistAt {A} (m : NM (bus := bus) A) (n : node) : Prop :=
    forall b, Reach (n_dhcp n) (n_dhcp (snd (fst (m n b)))).
  Definition Hist {A} (m : NM (bus := bus) A) : Prop := forall n, HistAt m n.

  Lemma hist_of_keeps {A} (m : NM A) : Keeps m -> Hist m.
  Proof.
    intros K n b. injection (K n b) as _ E _. rewrite E. apply reach_refl.
  Qed.
  Lemma hist_bind {A C} (m : NM A) (f : A -> NM C) : Hist m -> (forall a, Hist (f a)) -> Hist (nbind m f).
  Proof.
    intros Hm Hf n b. unfold nbind. specialize (Hm n b). destruct (m n b) as [[[a|e] n1] b1].
    - exact (reach_trans _ _ _ Hm (Hf a n1 b1)).
    - exact Hm.
  Qed.
  (* the table is written through set_mesh only *)
  Lemma hist_set_mesh (id : node -> Z) (d : node -> list (Z * Z)) (dd : node -> bool) :
    (forall n, Reach (n_dhcp n) (d n)) -> Hist (nmod (bus := bus) (fun n => set_mesh n (id n) (d n) (dd n))).
  Proof. intros H n b. exact (H n). Qed.
  (* what a continuation may assume of the state it reads and of the state it has just written *)
  Lemma histat_get {C} (f : node -> NM C) n : HistAt (f n) n -> HistAt (nbind nget f) n.
  Proof. exact (fun H => H). Qed.
  Lemma histat_mod {C} g (m : NM C) n :
    Reach (n_dhcp n) (n_dhcp (g n)) -> Hist m -> HistAt (nbind (nmod g) (fun _ => m)) n.
  Proof. intros Hg Hm b. exact (reach_trans _ _ _ Hg (Hm (g n) b)). Qed.

  (* Keeps for the mesh helpers the master's update() calls *)
  Lemma keeps_lookup_wait fuel : forall dl, Keeps (lookup_wait B fuel dl).
  Proof. induction fuel as [|k IH]; intro dl; cbn [lookup_wait]; auto 40 with keeps. Qed.
  Local Hint Resolve keeps_lookup_wait : keeps.
  Lemma keeps_lookup_2_master number by_id : Keeps (lookup_2_master B number by_id).
  Proof. unfold lookup_2_master. auto 40 with keeps. Qed.
  Local Hint Resolve keeps_lookup_2_master : keeps.
  Lemma keeps_lookup_address mc i : Keeps (lookup_address B mc i).
  Proof. unfold lookup_address. auto 40 with keeps. Qed.
  Lemma keeps_lookup_node_id mc a : Keeps (lookup_node_id B mc a).
  Proof. unfold lookup_node_id. auto 40 with keeps. Qed.
  Lemma keeps_release_address_node : Keeps (release_address_node B).
  Proof. unfold release_address_node. auto 40 with keeps. Qed.
  Local Hint Resolve keeps_lookup_address keeps_lookup_node_id keeps_release_address_node : keeps.

  (* Hist goals by auto, as for Keeps: binds and case splits are taken apart, a write of the table must be a table
     event, and a part that has no rule of its own must be one that Keeps *)
  Create HintDb hist discriminated.
  Local Hint Resolve hist_bind | 1 : hist.
  Local Hint Resolve hist_set_mesh reach_refl reach_release : hist.
  Local Hint Extern 2 (Hist (match ?x with _ => _ end)) => case x : hist.
  Local Hint Resolve hist_of_keeps | 3 : hist.

  (* the one place where a lease is written: _dhcp()'s scan and set_address are the event Request.  The three
     arguments are written as table_step writes them, so that unfolding it gives the very call of dhcp_pick. *)
  Lemma hist_dhcp_loop via (direct : bool) :
    Hist (dhcp_loop B (if direct then 5 else 4) (if direct then 0 else via) (if direct then 0 else 3 * level_of 8 via)).
  Proof.
    intro n. apply histat_get.
    generalize (reach_step (n_dhcp n) (Request (reserved (fb_hdr n)) via direct)). cbv beta iota zeta delta [table_step].
    destruct (dhcp_pick _ _ _ _ _) as [a|]; intro R; [|exact (fun _ => R)].
    apply histat_mod; [exact R|auto 40 with keeps hist].
  Qed.

  Lemma hist_dhcp : Hist (dhcp B).
  Proof.
    intro n. unfold dhcp. apply histat_get. destruct (n_do_dhcp n); [|exact (fun _ => reach_refl _)].
    apply histat_mod; [apply reach_refl|].
    destruct (_ =? NET_DEFAULT); [exact (hist_dhcp_loop 0 true)|exact (hist_dhcp_loop _ false)].
  Qed.
  Local Hint Resolve hist_dhcp : hist.

  (* RF24Mesh.update() on the master changes the table as a history of table events does, whatever arrives *)
  Theorem update_master_history : Hist (update_master B).
  Proof. unfold update_master. auto 40 with keeps hist. Qed.

End Master.
