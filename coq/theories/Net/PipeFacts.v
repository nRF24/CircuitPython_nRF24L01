(* PipeFacts.v -- what C04's pipe-address theorems (Props/C04.v: injectivity for ARBITRARY distinct prefix/suffix
   bytes, hardware shape) rest on, and the level addresses.  The bytes are looked up from an index pattern
   (Net/Addr.v pipe_pattern); looking up is injective on patterns when the bytes are distinct, and the pattern of a
   listened-on (node, pipe) pair can be read back (decode), so two pairs with one address are one pair.  The
   patterns of the pipes of a node come from one run of the address loop, checked once per node (node_pattern). *)
From Coq Require Import NArith PeanoNat List Bool Lia.
From NRF Require Import Net.Addr Net.AddrFacts.
Import ListNotations.
Local Open Scope N_scope.

Definition pipes15 : list N := [1; 2; 3; 4; 5].
Definition pipes05 : list N := [0; 1; 2; 3; 4; 5].
Definition levels04 : list N := [0; 1; 2; 3; 4].

(* the (node, pipe) pairs somebody listens on *)
Definition keys (allow_mc : bool) : list (N * N) :=
  if allow_mc
  then flat_map (fun a => map (fun p => (a, p)) pipes15) all_nodes
       ++ map (fun l => (lvl_2_addr l, 0)) levels04
  else flat_map (fun a => map (fun p => (a, p)) pipes05) all_nodes.

Lemma pipes15_range p : In p pipes15 -> 1 <= p <= 5.
Proof. cbn. intuition lia. Qed.

Definition pat_ok (p : pat) : bool := match p with None => true | Some i => i <? 6 end.

(* reading the pair back: [Some pipe; digits of the node ...] in the unicast form,
   [None; Some level; ...] in the shared form of a level *)
Definition decode (ps : list pat) : N * N :=
  match ps with
  | Some p :: t => (of_digits (map (fun d => match d with Some d => d | None => 0 end) t), p)
  | None :: Some l :: _ => (lvl_2_addr l, 0)
  | _ => (0, 0)
  end.

(* Under the condition `use` the loop of _pipe_address writes the node's digits into places 1..4 and never
   looks at the pipe number, which goes into place 0 afterwards: one run of the loop per node serves every
   pipe of the node. *)
Definition loop_ok (a : N) : bool :=
  match pa_loop 8 true a 1 [None; None; None; None; None] with
  | Some (_ :: t, _) => (fst (decode (Some 0 :: t)) =? a) && Nat.eqb (length t) 4 && forallb pat_ok t
  | _ => false
  end.

Lemma loops_ok : forall a, In a all_nodes -> loop_ok a = true.
Proof. apply forallb_forall. vm_compute. reflexivity. Qed.

(* t: places 1..4 of the node's patterns; decode reads the node from them whatever stands in place 0 *)
Lemma node_pattern a :
  In a all_nodes ->
  exists t, forall mc p, p <= 5 -> mc = false \/ p <> 0 ->
    pipe_pattern mc a p = Some (Some p :: t) /\ decode (Some p :: t) = (a, p)
    /\ length (Some p :: t) = 5%nat /\ forallb pat_ok (Some p :: t) = true.
Proof.
  intro Ha. pose proof (loops_ok a Ha) as H. unfold loop_ok in H.
  destruct (pa_loop 8 true a 1 _) as [[[|h t] c]|] eqn:E; try discriminate. exists t.
  rewrite !andb_true_iff, N.eqb_eq, Nat.eqb_eq in H. destruct H as ((Ea & L) & F).
  intros mc p Hp Hu. repeat split.
  - unfold pipe_pattern. replace (negb mc || (negb (p =? 0) || (a =? 0))) with true.
    + rewrite E. apply N.ltb_ge in Hp. rewrite Hp. reflexivity.
    + destruct Hu as [->|Hu]; [reflexivity|]. apply N.eqb_neq in Hu. rewrite Hu. destruct mc; reflexivity.
  - rewrite <- Ea. reflexivity.
  - exact (f_equal S L).
  - cbn [forallb pat_ok]. rewrite F, (proj2 (N.ltb_lt p 6)) by lia. reflexivity.
Qed.

Lemma keys_pattern mc k :
  In k (keys mc) ->
  exists ps, pipe_pattern mc (fst k) (snd k) = Some ps
    /\ decode ps = k /\ length ps = 5%nat /\ forallb pat_ok ps = true.
Proof.
  unfold keys. destruct mc; rewrite ?in_app_iff, !in_flat_map; [intros [(a & Ha & H)|H]|intros (a & Ha & H)].
  - apply in_map_iff in H. destruct H as (p & <- & Hp). apply pipes15_range in Hp.
    destruct (node_pattern a Ha) as [t H]. exists (Some p :: t). apply H; [lia|right; lia].
  - (* the shared address of each of the five levels *)
    destruct H as [<-|[<-|[<-|[<-|[<-|[]]]]]]; (eexists; split; [reflexivity|repeat split]).
  - apply in_map_iff in H. destruct H as (p & <- & Hp).
    destruct (node_pattern a Ha) as [t H]. exists (Some p :: t). apply H; [cbn in Hp; intuition lia|left; reflexivity].
Qed.

(* distinct bytes: looking bytes up is injective on patterns *)
Section Bytes.
  Context (prefix : N) (suffix : list N).
  Context (Hnd : NoDup (prefix :: suffix)) (Hlen : length suffix = 6%nat).

  Lemma lookup_pat_inj p q :
    pat_ok p = true -> pat_ok q = true ->
    lookup_pat prefix suffix p = lookup_pat prefix suffix q -> p = q.
  Proof.
    inversion Hnd as [|? ? Hnin Hnd']; subst.
    destruct p as [i|], q as [j|]; simpl; intros Hp Hq E; auto.
    - apply N.ltb_lt in Hp. apply N.ltb_lt in Hq. f_equal.
      assert (N.to_nat i = N.to_nat j).
      { apply (proj1 (NoDup_nth suffix 0) Hnd'); [lia|lia|exact E]. }
      lia.
    - exfalso. apply Hnin. rewrite <- E. apply nth_In. apply N.ltb_lt in Hp. lia.
    - exfalso. apply Hnin. rewrite E. apply nth_In. apply N.ltb_lt in Hq. lia.
  Qed.

  Lemma map_lookup_inj ps qs :
    forallb pat_ok ps = true -> forallb pat_ok qs = true ->
    map (lookup_pat prefix suffix) ps = map (lookup_pat prefix suffix) qs -> ps = qs.
  Proof.
    revert qs. induction ps as [|p ps IH]; destruct qs as [|q qs]; try discriminate; auto.
    intros Hp Hq E. apply andb_true_iff in Hp. apply andb_true_iff in Hq.
    destruct Hp as [Hp Hps], Hq as [Hq Hqs]. inversion E as [[E1 E2]].
    f_equal; [apply lookup_pat_inj; assumption|apply IH; auto].
  Qed.
End Bytes.

Lemma lvl_2_addr_level :
  forallb (fun l => Nat.eqb (length (digits_of 8 (lvl_2_addr l))) (N.to_nat l)) levels04 = true.
Proof. vm_compute. reflexivity. Qed.

(* without `use` the loop of _pipe_address only counts the digits *)
Lemma pa_loop_count f : forall dec count res,
  (length (digits_of f dec) < f)%nat ->
  pa_loop f false dec count res = Some (res, (count + length (digits_of f dec))%nat).
Proof.
  induction f as [|f IH]; intros dec count res H; [lia|]. cbn [pa_loop digits_of] in *.
  destruct (dec =? 0); [rewrite Nat.add_0_r; reflexivity|]. cbn [length] in H |- *.
  rewrite IH by lia. f_equal. f_equal. lia.
Qed.

(* so, with multicast on, the pipe-0 pattern of a node depends on its number of digits only *)
Lemma pipe0_level a b :
  length (digits_of 8 a) = length (digits_of 8 b) -> (length (digits_of 8 a) < 8)%nat ->
  pipe_pattern true a 0 = pipe_pattern true b 0.
Proof.
  intros E L. unfold pipe_pattern.
  destruct (N.eqb_spec a 0) as [Ha|Ha]; destruct (N.eqb_spec b 0) as [Hb|Hb].
  - rewrite Ha, Hb. reflexivity.
  - rewrite Ha in E. symmetry in E. apply digits_of_nil in E. contradiction.
  - rewrite Hb in E. apply digits_of_nil in E. contradiction.
  - cbn [negb orb N.eqb]. rewrite !pa_loop_count, E by (rewrite <- ?E; exact L). reflexivity.
Qed.

(* with multicast on, the pipe-0 address a node opens in _begin is its level's shared
   address: the very address multicast() to that level resolves to *)
Theorem level_pipe0 prefix suffix a :
  In a all_nodes ->
  pipe_address prefix suffix true a 0 =
  pipe_address prefix suffix true (lvl_2_addr (N.of_nat (length (digits_of 8 a)))) 0.
Proof.
  intros Ha. destruct (node_digits a Ha) as (L & _ & _).
  set (n := length (digits_of 8 a)) in *.
  assert (Ln : length (digits_of 8 (lvl_2_addr (N.of_nat n))) = n).
  { pose proof (proj1 (forallb_forall _ _) lvl_2_addr_level (N.of_nat n)) as H. cbv beta in H.
    rewrite Nat.eqb_eq, Nat2N.id in H. apply H.
    destruct n as [|[|[|[|[|]]]]]; cbn; auto 6. lia. }
  unfold pipe_address. rewrite (pipe0_level a (lvl_2_addr (N.of_nat n))); [reflexivity|symmetry; exact Ln|lia].
Qed.

Example keys_nonempty : length (keys true) = 3910%nat /\ length (keys false) = 4686%nat.
Proof. vm_compute. split; reflexivity. Qed.
