(* Sweep.v -- finite sweeps: a boolean predicate checked by computation on 0..n-1 holds
   for every integer in that range (the bound is part of each theorem that uses it). *)
From Coq Require Import ZArith NArith List Bool Lia.
Import ListNotations.
Local Open Scope Z_scope.

(* nrange_pos p start = [start; ..; start + p - 1], split by the bits of p.  The domain `below n` is built in binary:
   `map N.of_nat (seq 0 n)` would make the checker walk a unary numeral for every element, quadratic in n under
   coqchk's lazy machine; and the bound is an N literal, so with below_N a caller's hypothesis reads `r < 256`
   (with below_Z: `0 <= x < Z.of_N 256`).  To sweep a conjunction, turn it into one boolean first
   (`rewrite <- N.eqb_eq, <- andb_true_iff`), then `revert r H; apply (below_N _ n); vm_compute; reflexivity`:
   nothing is left to unpack. *)
Fixpoint nrange_pos (p : positive) (start : N) : list N :=
  match p with
  | xH => [start]
  | xO q => nrange_pos q start ++ nrange_pos q (start + Npos q)
  | xI q => start :: nrange_pos q (start + 1) ++ nrange_pos q (start + 1 + Npos q)
  end%N.

Lemma nrange_pos_In p : forall start x, (start <= x < start + Npos p)%N -> In x (nrange_pos p start).
Proof.
  induction p as [q IH|q IH|]; intros start x Hx; cbn [nrange_pos].
  - destruct (N.eq_dec x start) as [->|Hne]; [left; reflexivity|right].
    apply in_or_app. destruct (N.lt_ge_cases x (start + 1 + Npos q)); [left|right]; apply IH; lia.
  - apply in_or_app. destruct (N.lt_ge_cases x (start + Npos q)); [left|right]; apply IH; lia.
  - left. lia.
Qed.

Definition below (n : N) : list N := match n with N0 => [] | Npos p => nrange_pos p 0 end.

Lemma below_N (P : N -> bool) (n : N) :
  forallb P (below n) = true -> forall r, (r < n)%N -> P r = true.
Proof.
  intros H r Hr. rewrite forallb_forall in H. apply H.
  destruct n as [|p]; [lia|]. apply nrange_pos_In. lia.
Qed.

Lemma below_Z (P : Z -> bool) (n : N) :
  forallb (fun r => P (Z.of_N r)) (below n) = true -> forall r, 0 <= r < Z.of_N n -> P r = true.
Proof. intros H r Hr. rewrite <- (Z2N.id r) by lia. apply (below_N _ n H). lia. Qed.
