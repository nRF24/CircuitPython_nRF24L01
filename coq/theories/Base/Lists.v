(* Lists.v -- facts about lists that are not about the model. *)
From Coq Require Import List Arith Lia.
Import ListNotations.

Lemma NoDup_snoc {A} (l : list A) x : NoDup l -> ~ In x l -> NoDup (l ++ [x]).
Proof.
  intros Hn Hx. apply NoDup_rev in Hn. rewrite in_rev in Hx.
  rewrite <- (rev_involutive (l ++ [x])), rev_app_distr. apply NoDup_rev. constructor; assumption.
Qed.

Lemma NoDup_map_inj {A B} (f : A -> B) l x y :
  NoDup (map f l) -> In x l -> In y l -> f x = f y -> x = y.
Proof.
  induction l as [|h t IH]; simpl; intros Hnd Hx Hy E; [tauto|].
  inversion Hnd as [|? ? Hnin Hnd']; subst.
  destruct Hx as [->|Hx], Hy as [->|Hy]; auto.
  - exfalso. apply Hnin. rewrite E. apply in_map. assumption.
  - exfalso. apply Hnin. rewrite <- E. apply in_map. assumption.
Qed.

Lemma skipn_app_exact {A} (a b : list A) : skipn (length a) (a ++ b) = b.
Proof. rewrite skipn_app, skipn_all, Nat.sub_diag. reflexivity. Qed.

Lemma firstn_app_exact {A} (a b : list A) : firstn (length a) (a ++ b) = a.
Proof. rewrite firstn_app, Nat.sub_diag, firstn_all. apply app_nil_r. Qed.

Lemma removelast_length {A} (l : list A) : length (removelast l) = pred (length l).
Proof. rewrite removelast_firstn_len, firstn_length. lia. Qed.

Lemma Forall_removelast {A} (P : A -> Prop) l : Forall P l -> Forall P (removelast l).
Proof.
  destruct l as [|a l]; [auto|]. intro H.
  rewrite (app_removelast_last a (l := a :: l)) in H by discriminate. apply Forall_app in H. exact (proj1 H).
Qed.

Lemma last_cons {A} (l : list A) : forall a d, last (a :: l) d = last l a.
Proof.
  induction l as [|b l IH]; intros a d; [reflexivity|].
  change (last (a :: b :: l) d) with (last (b :: l) d). rewrite !IH. reflexivity.
Qed.

Lemma firstn_chunk {A} (l : list A) a c : firstn a l ++ firstn c (skipn a l) = firstn (a + c) l.
Proof.
  rewrite <- (firstn_skipn a (firstn (a + c) l)).
  rewrite firstn_firstn, Nat.min_l, firstn_skipn_comm by lia. reflexivity.
Qed.

(* chunk i of a list cut into pieces of c is firstn c (skipn (c * i) l) *)
Lemma concat_chunks {A} (l : list A) c n :
  concat (map (fun i => firstn c (skipn (c * i) l)) (seq 0 n)) = firstn (c * n) l.
Proof.
  induction n as [|n IH]; [rewrite Nat.mul_0_r; reflexivity|].
  rewrite seq_S, map_app, concat_app, IH. cbn [map concat Nat.add].
  rewrite app_nil_r, firstn_chunk. f_equal. lia.
Qed.
