(* Bits.v -- bounds and single bits of the results of bitwise operations, and the passage between the drivers'
   Python integers (Z) and the radio's register bytes (N). *)
From Coq Require Import ZArith NArith Bool Lia.
Local Open Scope Z_scope.

Lemma Z_land_le x m : 0 <= m -> 0 <= Z.land x m <= m.
Proof.
  intro H. split; [apply Z.land_nonneg; auto|].
  assert (E : Z.ldiff (Z.land x m) m = 0).
  { apply Z.bits_inj'. intros n Hn. rewrite Z.ldiff_spec, Z.land_spec, Z.bits_0.
    destruct (Z.testbit x n), (Z.testbit m n); reflexivity. }
  pose proof (Z.sub_nocarry_ldiff _ _ E) as S.
  assert (0 <= Z.ldiff m (Z.land x m)) by (apply Z.ldiff_nonneg; auto). lia.
Qed.

(* fitting in k bits is having nothing left after a shift by k, and shifts distribute over the bitwise operations *)
Lemma Z_fits_shiftr a k : 0 <= k -> 0 <= a < 2 ^ k <-> Z.shiftr a k = 0.
Proof.
  intro Hk. rewrite Z.shiftr_div_pow2 by exact Hk. pose proof (Z.pow_pos_nonneg 2 k).
  rewrite Z.div_small_iff by lia. lia.
Qed.

Lemma Z_lor_lt a b k : 0 <= a < 2 ^ k -> 0 <= b < 2 ^ k -> 0 <= Z.lor a b < 2 ^ k.
Proof.
  destruct (Z.le_gt_cases 0 k) as [Hk|Hk]; [|rewrite Z.pow_neg_r by exact Hk; lia].
  rewrite !Z_fits_shiftr, Z.shiftr_lor by exact Hk. intros -> ->. reflexivity.
Qed.

(* a field put above k free bits: or is plus *)
Lemma lor_shiftl_add q c k : 0 <= k -> 0 <= c < 2 ^ k -> Z.lor (Z.shiftl q k) c = q * 2 ^ k + c.
Proof.
  intros Hk Hc. rewrite <- Z.shiftl_mul_pow2 by exact Hk.
  rewrite <- Z.lxor_lor, <- Z.add_nocarry_lxor; try reflexivity;
    apply Z.bits_inj'; intros i Hi; rewrite Z.land_spec, Z.bits_0;
    (destruct (Z.lt_ge_cases i k);
     [rewrite Z.shiftl_spec_low by assumption; reflexivity
     |rewrite <- (Z.mod_small c (2 ^ k)), Z.mod_pow2_bits_high by lia; apply andb_false_r]).
Qed.

(* a non-negative Python integer and the register byte it is written as have the same bits *)
Lemma testbit_to_N v i : 0 <= v -> N.testbit (Z.to_N v) i = Z.testbit v (Z.of_N i).
Proof. intro H. rewrite <- (Z2N.id v H) at 2. symmetry. apply N2Z.inj_testbit. Qed.

Lemma to_N_land a b : 0 <= a -> 0 <= b -> N.land (Z.to_N a) (Z.to_N b) = Z.to_N (Z.land a b).
Proof.
  intros Ha Hb. apply N.bits_inj. intro i.
  rewrite N.land_spec, !testbit_to_N, Z.land_spec by (try apply Z.land_nonneg; auto). reflexivity.
Qed.

Lemma of_N_land x m : Z.land (Z.of_N x) (Z.of_N m) = Z.of_N (N.land x m).
Proof.
  apply Z.bits_inj'. intros i Hi. rewrite Z.land_spec, !Z.testbit_of_N', N.land_spec by exact Hi. reflexivity.
Qed.

Lemma N_fits_shiftr a k : (a < 2 ^ k <-> N.shiftr a k = 0)%N.
Proof. rewrite N.shiftr_div_pow2. symmetry. apply N.div_small_iff, N.pow_nonzero. discriminate. Qed.

Lemma N_land_lt a b k : (a < 2 ^ k -> N.land a b < 2 ^ k)%N.
Proof. rewrite !N_fits_shiftr, N.shiftr_land. intros ->. apply N.land_0_l. Qed.

Lemma N_lor_lt a b k : (a < 2 ^ k -> b < 2 ^ k -> N.lor a b < 2 ^ k)%N.
Proof. rewrite !N_fits_shiftr, N.shiftr_lor. intros -> ->. reflexivity. Qed.

Lemma N_lxor_lt a b k : (a < 2 ^ k -> b < 2 ^ k -> N.lxor a b < 2 ^ k)%N.
Proof. rewrite !N_fits_shiftr, N.shiftr_lxor. intros -> ->. reflexivity. Qed.
